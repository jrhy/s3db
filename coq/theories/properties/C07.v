(* C07 — Key order is a total order that matches SQLite, and equal keys are one key.
   Statements with short proofs from KeyOrderProofs (the witnesses by evaluation), followed by Print Assumptions. *)
From S3db Require Import Base KeyOrder.
From S3db.proofs Require Import KeyOrderProofs.
Open Scope Z_scope.

(* SQLite's order (exact numeric comparison, then text, then blob, bytewise) is a total
   order on all non-NULL, non-NaN keys. *)
Theorem C07_spec_total a b : valid_key a = true -> valid_key b = true -> exists c, order_exact a b = Some c.
Proof. intros Ha Hb. eexists. apply order_exact_emb; assumption. Qed.
Theorem C07_spec_refl a : valid_key a = true -> order_exact a a = Some Eq.
Proof. intros Ha. rewrite order_exact_emb, bytes_cmp_refl by assumption. reflexivity. Qed.
Theorem C07_spec_antisym a b c : valid_key a = true -> valid_key b = true ->
  order_exact a b = Some c -> order_exact b a = Some (CompOpp c).
Proof.
  intros Ha Hb. rewrite !order_exact_emb by assumption. intros [= <-]. f_equal. apply bytes_cmp_antisym.
Qed.
Theorem C07_spec_trans_lt a b c : valid_key a = true -> valid_key b = true -> valid_key c = true ->
  order_exact a b = Some Lt -> order_exact b c = Some Lt -> order_exact a c = Some Lt.
Proof.
  intros Ha Hb Hc. rewrite !order_exact_emb by assumption. intros [= H1] [= H2]. f_equal.
  exact (bytes_cmp_trans_lt _ _ _ H1 H2).
Qed.
Theorem C07_spec_trans_eq a b c : valid_key a = true -> valid_key b = true -> valid_key c = true ->
  order_exact a b = Some Eq -> order_exact b c = Some Eq -> order_exact a c = Some Eq.
Proof.
  intros Ha Hb Hc H1 H2. apply order_exact_eq_iff in H1, H2; try assumption.
  apply order_exact_eq_iff; try assumption. congruence.
Qed.
Theorem C07_equal_only_for_equal_values a b : valid_key a = true -> valid_key b = true ->
  order_exact a b = Some Eq ->
  match a, b with
  | VInt x, VInt y => x = y | VText s, VText t => s = t | VBlob s, VBlob t => s = t | _, _ => True end.
Proof. intros Ha Hb H. exact (emb_inj_same_class a b (proj1 (order_exact_eq_iff a b Ha Hb) H)). Qed.

(* C07_partial: the implemented order (Key.Order) IS SQLite's order whenever every INTEGER key
   involved has |z| <= 2^53 (all REAL, TEXT, BLOB keys allowed).  Missing for the full
   statement: INTEGER keys beyond 2^53 compared with REAL keys (refuted below). *)
Theorem C07_partial a b : safe_key a = true -> safe_key b = true -> order a b = order_exact a b.
Proof. exact (order_safe_exact a b). Qed.

(* A NULL key cannot be compared (typeIndex panics in Go: modelled as None); Insert rejects NULL before that. *)
Theorem C07_null_not_comparable b : order VNull b = None /\ order b VNull = None.
Proof. split; unfold order; destruct b; reflexivity. Qed.

(* Full statement is FALSE of the faithful model (finding F-C07-1 / D4): witnesses. *)
Theorem C07_transitivity_refuted :
  order k_a k_r = Some Eq /\ order k_r k_b = Some Eq /\ order k_a k_b = Some Lt.
Proof.
  (* both integers round to 2^53, which is what k_r decodes to *)
  split; [exact (proj1 (order_int_real _ _ _ decode_k_r))|].
  split; [exact (proj1 (order_real_int _ _ _ decode_k_r))|reflexivity].
Qed.
Theorem C07_matches_sqlite_refuted : order k_b k_r = Some Eq /\ order_exact k_b k_r = Some Gt.
Proof. exact (order_int_real _ _ _ decode_k_r). Qed.
(* finding F-C07-2: numerically equal INTEGER and REAL keys (and +0.0 / -0.0) compare equal
   but are placed on different tree levels *)
Theorem C07_equal_keys_one_level_refuted :
  order (VInt 2) (VReal 4611686018427387904) = Some Eq /\
  layer (VInt 2) 2 <> layer (VReal 4611686018427387904) 2.
Proof. vm_compute. split; [reflexivity | discriminate]. Qed.
Theorem C07_zero_sign_level_refuted :
  order (VReal 0) (VReal 9223372036854775808) = Some Eq /\
  layer (VReal 0) 3 <> layer (VReal 9223372036854775808) 3.
Proof. vm_compute. split; [reflexivity | discriminate]. Qed.

(* non-vacuity: the safe domain is inhabited by non-trivial pairs *)
Example C07_nonvacuous :
  safe_key (VInt (2 ^ 53)) = true /\ safe_key (VReal 4845873199050653696) = true /\
  order (VInt (2 ^ 53)) (VReal 4845873199050653696) = Some Eq.
Proof.
  split; [reflexivity|]. split; [unfold safe_key; rewrite decode_k_r; reflexivity|].
  exact (proj1 (order_int_real _ _ _ decode_k_r)).
Qed.

Print Assumptions C07_spec_total.
Print Assumptions C07_spec_refl.
Print Assumptions C07_spec_antisym.
Print Assumptions C07_spec_trans_lt.
Print Assumptions C07_spec_trans_eq.
Print Assumptions C07_equal_only_for_equal_values.
Print Assumptions C07_partial.
Print Assumptions C07_null_not_comparable.
Print Assumptions C07_transitivity_refuted.
Print Assumptions C07_matches_sqlite_refuted.
Print Assumptions C07_equal_keys_one_level_refuted.
Print Assumptions C07_zero_sign_level_refuted.
Print Assumptions C07_nonvacuous.
