(* C08 — Stored values come back unchanged in value and storage class.
   Statements with short proofs from ValueProofs, followed by Print Assumptions. *)
From S3db Require Import Base KeyOrder RowMerge Stmt.
From S3db.proofs Require Import ValueProofs.
Import ListNotations.
Open Scope Z_scope.

(* the merge of two rows (local write, merge of writers' versions, vacuum) only SELECTS among
   the stored column values: every column value of the result is, bit for bit, the value of
   that column in one of the two inputs *)
Theorem C08_merge_selects_values t1 r1 t2 r2 out i r :
  nth_error (cols (merge_rows t1 r1 t2 r2 out)) i = Some (Some r) ->
  (exists c, nth_error (cols r1) i = Some (Some c) /\ cv c = cv r) \/
  (exists c, nth_error (cols r2) i = Some (Some c) /\ cv c = cv r).
Proof.
  unfold merge_rows.
  destruct (negb (t2 + doff r2 <? t1 + doff r1)).
  - destruct (del r2); cbn [cols]; [destruct i; discriminate|]. apply merge_cols_select.
  - destruct (del r1); cbn [cols]; [destruct i; discriminate|]. apply merge_cols_select.
Qed.

(* C08_partial: what SQLite is handed for a stored value is that value, for every value of
   every storage class except empty TEXT.  Missing for the full statement: '' (refuted below) *)
Theorem C08_partial v : v <> VText [] -> bridge_result v = v.
Proof. destruct v as [| | |s|]; try reflexivity. destruct s; [intros H; exfalso; apply H; reflexivity | reflexivity]. Qed.

(* full statement refuted (finding F-C08-1): '' is read back as NULL *)
Theorem C08_empty_text_refuted : bridge_result (VText []) <> VText [].
Proof. discriminate. Qed.

(* columns not mentioned in an INSERT read as NULL *)
Theorem C08_missing_column_is_null n r i : (i < n)%nat ->
  nth_error (cols r) i = None \/ nth_error (cols r) i = Some None ->
  nth_error (row_values n r) i = Some VNull.
Proof. exact (missing_column_is_null n r i). Qed.

(* finding F-C08-2, on the model: INSERT 5.0; DELETE 5.0; INSERT 5 — every statement succeeds and the
   key that comes back is 5.0 (REAL), not the 5 (INTEGER) the last INSERT was given: the tree
   replaces the value of an equal key and keeps the stored key *)
Theorem C08_reinserted_key_class_refuted : exists tb k_old k_new v, reinsert_shape tb k_old k_new v.
Proof. exact reinserted_key_class_witness. Qed.

Example C08_nonvacuous :
  bridge_result (VReal 9218868437227405312) = VReal 9218868437227405312 /\
  bridge_result (VBlob []) = VBlob [] /\ bridge_result (VInt (-9223372036854775808)) = VInt (-9223372036854775808).
Proof. repeat split. Qed.

Print Assumptions C08_merge_selects_values.
Print Assumptions C08_partial.
Print Assumptions C08_empty_text_refuted.
Print Assumptions C08_missing_column_is_null.
Print Assumptions C08_nonvacuous.
Print Assumptions C08_reinserted_key_class_refuted.
