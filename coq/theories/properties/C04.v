(* C04 — A crash at any point of a commit leaves old or new contents, never a mixture.
   For EVERY fault plan and EVERY crash point (the interpreter [run] of Store.v stops when k
   mutations have been applied and the next is due, for any k; the theorems quantify over k, the
   plan, the bucket, the handle and the retire order):
   - the mutations of a commit are, in this order, [PUT node]? ; PUT current/new ;
     (PUT merged/p ; DELETE current/p)* — any prefix of it when cut;
   - whatever the cut, no node name and no version name (under current/ or merged/) that was
     present is absent afterwards, and a commit that fails leaves current/ and merged/ as
     they were;
   - an acknowledged commit is under current/ with its root node stored;
   - the final bucket is exactly the initial one with the successful mutations applied;
   - an open of such a bucket (fault-free) returns the merge of all versions under current/;
   - COMPOSED (CrashViewProofs): whatever the plan and the cut, the fault-free reader of the
     bucket that is left computes exactly the contents a reader computed before the commit began
     (old), or exactly the handle's contents merged with the versions the handle had not merged
     (new) — never a mixture; a commit that failed leaves the old contents, an acknowledged one
     the new contents.  Stated for any merge that is a minimum-rank selection on a domain S and
     instantiated for s3db rows and for the kv package's last-write-wins.
   - (what keeps old and new version mergeable after a crash between the PUT of the new and the
     DELETE of the old one) the branch factor of a table is fixed by its first version: a handle
     obtained by Open over stored versions has THEIR branch factor whatever the client configured,
     all versions that went into one handle agree on it, and the version a Commit publishes
     carries the handle's — for every fault plan and crash point.
   Statements, each proved in a line or two from the theorems of proofs/ (the examples at the
   end by evaluation), followed by Print Assumptions. *)
From S3db Require Import Base KeyOrder RowMerge Store KvProto Inst.
From S3db.proofs Require Import ProtoProofs ExecProofs CommitProofs OpenProofs TreeProofs Selector NamedProofs RowMergeProofs EqbProofs CrashViewProofs BranchFactorProofs.
Import ListNotations.
Open Scope Z_scope.

Section C04.
Context {V : Type}.
Variable oeq : obj V -> obj V -> bool.

Theorem C04_commit_mutation_order fuel plan crash i muts b order (h : handle (V := V)) tr b' r tr' :
  run oeq fuel plan crash i muts b (commit order h) tr = (b', r, tr') -> r <> OutOfFuel ->
  exists ext, tr' = ext ++ tr /\
    commit_shape h (succ_muts ext) /\
    (commit_needed h = false -> ext = []) /\
    (commit_needed h = true -> forall n, acked r n ->
       exists v, In (RPut PCur n (OVer v)) (succ_muts ext)) /\
    (forall e, r = Failed e -> ~ exists n v, In (RPut PCur n (OVer v)) (succ_muts ext)).
Proof. exact (run_post oeq plan crash (commit_protocol oeq plan crash order h muts b tr) fuel i b' r tr'). Qed.

Theorem C04_nothing_lost_acked_present fuel plan crash i muts b order (h : handle (V := V)) tr b' r tr' :
  run oeq fuel plan crash i muts b (commit order h) tr = (b', r, tr') -> r <> OutOfFuel ->
  (forall x, has (b_node b) x -> has (b_node b') x) /\
  (forall x, ver_present b x -> ver_present b' x) /\
  (forall e, r = Failed e -> b_cur b' = b_cur b /\ b_merged b' = b_merged b) /\
  (commit_needed h = true -> forall n, acked r n ->
     (h_dirty h = false -> forall l, h_link h = Some l -> has (b_node b) l) ->
     exists v, o_get n (b_cur b') = Some (OVer v) /\ v_parents v = h_msources h /\
               forall l, v_link v = Some l -> has (b_node b') l).
Proof. exact (run_post oeq plan crash (commit_bucket oeq plan crash order h muts b tr) fuel i b' r tr'). Qed.

Theorem C04_bucket_is_replay_of_applied_mutations {A} fuel plan crash i muts b (p : prog V A) tr b' r tr' :
  run oeq fuel plan crash i muts b p tr = (b', r, tr') -> r <> OutOfFuel ->
  exists ext, tr' = ext ++ tr /\ same_stores (replay oeq (succ_muts ext) b) b'.
Proof. exact (run_post oeq plan crash (exec_replay oeq plan crash muts b p tr) fuel i b' r tr'). Qed.

(* what a recovery open computes *)
Variable c : cfg (V := V).
Variable S : cval V -> Prop.
Variable g : cval V -> cval V -> cval V.
Hypothesis f_total : forall x y, S x -> S y -> c_merge c x y = Some (g x y).
Hypothesis g_closed : forall x y, S x -> S y -> S (g x y).

Theorem C04_open_merges_all_current_versions when order corder b muts tr b' r tr' muts' :
  bucket_ok c S b ->
  @exec V oeq [] None _ muts b (open c true None when order corder) tr b' r tr' muts' ->
  b' = b /\
  exists h ts, r = Done h /\
    Forall2 (fun n t => tree_named b n = Some t) (apply_order order (o_names (b_cur b))) ts /\
    view_fold c ts = Some (h_tree h) /\
    h_msources h = apply_order order (o_names (b_cur b)) /\ h_ro h = true.
Proof. exact (open_ro_spec c oeq S g f_total g_closed). Qed.
End C04.

Section C04View.
Context {V : Type}.
Variable c : cfg (V := V).
Variable oeq : obj V -> obj V -> bool.
Hypothesis oeq_eq : forall a b, oeq a b = true -> a = b.
Variable S : cval V -> Prop.
Variable g : cval V -> cval V -> cval V.
Variable rk : cval V -> Z * Z.
Hypothesis f_total : forall x y, S x -> S y -> c_merge c x y = Some (g x y).
Hypothesis g_sel : forall a b, S a -> S b -> g a b = a \/ g a b = b.
Hypothesis g_min : forall a b, S a -> S b -> rle (rk (g a b)) (rk a) /\ rle (rk (g a b)) (rk b).
Hypothesis S_compat : forall a b, S a -> S b -> rk a = rk b -> a = b.
Hypothesis veq_eq : forall a b, c_veq c a b = true -> a = b.
Theorem C04_reader_after_cut_commit_sees_old_or_new plan crash order (h : handle (V := V)) muts b tr b1 r tr1 muts1
        when oorder corder m2 tr2 b2 r2 tr2' m2' vold vnew :
  Named b -> bucket_ok c S b -> handle_ok c S rk b h ->
  @exec V oeq plan crash _ muts b (commit order h) tr b1 r tr1 muts1 ->
  old_view c b vold -> new_view c b h vnew ->
  @exec V oeq [] None _ m2 b1 (open c true None when oorder corder) tr2 b2 r2 tr2' m2' ->
  exists hv, r2 = Done hv /\
    (same_rows (h_tree hv) vold \/ same_rows (h_tree hv) vnew) /\
    (forall e, r = Failed e -> same_rows (h_tree hv) vold) /\
    (forall n, acked r n -> commit_needed h = true -> same_rows (h_tree hv) vnew).
Proof.
  exact (crash_view_old_or_new c oeq oeq_eq S g rk f_total g_sel g_min S_compat veq_eq).
Qed.
(* the same for the interpreter: any fuel that suffices, any plan, any crash point *)
Theorem C04_run_reader_after_cut_commit_sees_old_or_new fuel plan crash i muts b order (h : handle (V := V)) tr b1 r tr1
        fuel2 i2 m2 when oorder corder tr2 b2 r2 tr2' vold vnew :
  Named b -> bucket_ok c S b -> handle_ok c S rk b h ->
  run oeq fuel plan crash i muts b (commit order h) tr = (b1, r, tr1) -> r <> OutOfFuel ->
  old_view c b vold -> new_view c b h vnew ->
  run oeq fuel2 [] None i2 m2 b1 (open c true None when oorder corder) tr2 = (b2, r2, tr2') -> r2 <> OutOfFuel ->
  exists hv, r2 = Done hv /\
    (same_rows (h_tree hv) vold \/ same_rows (h_tree hv) vnew) /\
    (forall e, r = Failed e -> same_rows (h_tree hv) vold) /\
    (forall n, acked r n -> commit_needed h = true -> same_rows (h_tree hv) vnew).
Proof.
  intros HN Hb Hh R1 N1 Vo Vn R2 N2.
  destruct (run_exec oeq plan crash fuel i muts b _ tr b1 r tr1 R1 N1) as (mu1 & X1).
  destruct (run_exec oeq [] None fuel2 i2 m2 b1 _ tr2 b2 r2 tr2' R2 N2) as (mu2 & X2).
  exact (C04_reader_after_cut_commit_sees_old_or_new plan crash order h muts b tr b1 r tr1 mu1 when oorder corder
           m2 tr2 b2 r2 tr2' mu2 vold vnew HN Hb Hh X1 Vo Vn X2).
Qed.
End C04View.

Section C04BF.
Context {V : Type}.
Variable c : cfg (V := V).
Variable oeq : obj V -> obj V -> bool.

Theorem C04_open_takes_the_stored_branch_factor fuel plan crash i muts b ro only when order corder tr b' (h : handle (V := V)) tr' :
  run oeq fuel plan crash i muts b (open c ro only when order corder) tr = (b', Done h, tr') ->
  all_bf (h_bf h) (h_merged h) /\ (h_merged h = [] -> h_bf h = c_bf c).
Proof. intros E. exact (open_bf c ro only when order corder h (run_returns oeq E)). Qed.

Theorem C04_commit_publishes_the_handles_branch_factor fuel plan crash i muts b order (h : handle (V := V)) tr b' h' r tr' :
  run oeq fuel plan crash i muts b (commit order h) tr = (b', Done (h', r), tr') ->
  all_bf (h_bf h) (h_merged h) -> h_bf h' = h_bf h /\ all_bf (h_bf h') (h_merged h').
Proof. intros E. exact (commit_bf order h h' r (run_returns oeq E)). Qed.
End C04BF.
(* instances: s3db tables (entries written by SQL statements at pairwise different times, or
   identical), and the kv package (last write wins) *)
Theorem C04_rows_reader_sees_old_or_new n (S : cval row -> Prop)
        (S_inv : forall v, S v -> val_inv n v) (S_compat : forall a b, S a -> S b -> md a = md b -> a = b) bf
        plan crash order (h : handle (V := row)) muts b tr b1 r tr1 muts1
        when oorder corder m2 tr2 b2 r2 tr2' m2' vold vnew :
  Named b -> bucket_ok (cfg_rows bf) S b -> handle_ok (cfg_rows bf) S row_rank b h ->
  @exec row obj_eqb_rows plan crash _ muts b (commit order h) tr b1 r tr1 muts1 ->
  old_view (cfg_rows bf) b vold -> new_view (cfg_rows bf) b h vnew ->
  @exec row obj_eqb_rows [] None _ m2 b1 (open (cfg_rows bf) true None when oorder corder) tr2 b2 r2 tr2' m2' ->
  exists hv, r2 = Done hv /\
    (same_rows (h_tree hv) vold \/ same_rows (h_tree hv) vnew) /\
    (forall e, r = Failed e -> same_rows (h_tree hv) vold) /\
    (forall nm, acked r nm -> commit_needed h = true -> same_rows (h_tree hv) vnew).
Proof.
  exact (crash_view_old_or_new (cfg_rows bf) obj_eqb_rows obj_eqb_rows_eq S mv row_rank
           (mv_total n S S_inv) (mv_sel n S S_inv) (mv_min n S S_inv) (row_rank_compat S S_compat) cval_row_eqb_eq).
Qed.
Theorem C04_kv_reader_sees_old_or_new (S : cval Z -> Prop)
        (S_compat : forall a b, S a -> S b -> lww_rank a = lww_rank b -> a = b) mode bf
        plan crash order (h : handle (V := Z)) muts b tr b1 r tr1 muts1
        when oorder corder m2 tr2 b2 r2 tr2' m2' vold vnew :
  Named b -> bucket_ok (cfg_plain mode bf) S b -> handle_ok (cfg_plain mode bf) S lww_rank b h ->
  @exec Z obj_eqb_plain plan crash _ muts b (commit order h) tr b1 r tr1 muts1 ->
  old_view (cfg_plain mode bf) b vold -> new_view (cfg_plain mode bf) b h vnew ->
  @exec Z obj_eqb_plain [] None _ m2 b1 (open (cfg_plain mode bf) true None when oorder corder) tr2 b2 r2 tr2' m2' ->
  exists hv, r2 = Done hv /\
    (same_rows (h_tree hv) vold \/ same_rows (h_tree hv) vnew) /\
    (forall e, r = Failed e -> same_rows (h_tree hv) vold) /\
    (forall nm, acked r nm -> commit_needed h = true -> same_rows (h_tree hv) vnew).
Proof.
  exact (crash_view_old_or_new (cfg_plain mode bf) obj_eqb_plain obj_eqb_plain_eq S last_write_wins lww_rank
           (fun a b _ _ => eq_refl) (fun a b _ _ => lww_sel a b) (fun a b _ _ => lww_min a b) S_compat cval_Z_eqb_eq).
Qed.
(* the hypotheses are satisfiable: a dirty one-row handle committed to the empty bucket and
   cut after one mutation stops with exactly the node stored *)
Definition c04_h : handle (V := row) :=
  {| h_ro := false; h_tree := [(VInt 1, mk_set 5 empty_row)]; h_dirty := true; h_link := None;
     h_created := Some 7; h_source := None; h_msources := []; h_mode := 1; h_bf := 4;
     h_merged := []; h_tombstoned := false; h_conf := 0 |}.
Example C04_cut_after_node_store :
  snd (fst (run_rows 50 [] (Some 1) empty_bucket (commit [] c04_h))) = Crashed /\
  map fst (snd (run_rows 50 [] (Some 1) empty_bucket (commit [] c04_h))) =
    [RPut PNode 1 (ONode (h_tree c04_h))] /\
  (exists n, snd (fst (run_rows 50 [] None empty_bucket (commit [] c04_h))) =
             Done (fst (match snd (fst (run_rows 50 [] None empty_bucket (commit [] c04_h))) with
                        | Done x => x | _ => (c04_h, CFail 0) end), COk (Some n))).
Proof. split; [vm_compute; reflexivity|]. split; [vm_compute; reflexivity|]. exists 2. vm_compute. reflexivity. Qed.

(* the hypotheses of the composed theorem are satisfiable: the first commit of a one-row table
   into the empty bucket (the reader of whatever is left sees no row, or that row) *)
Definition c04_S (v : cval row) : Prop := v = mk_set 5 empty_row.
Example C04_view_hypotheses_hold :
  Named (@empty_bucket row) /\ bucket_ok (cfg_rows 4) c04_S empty_bucket /\
  handle_ok (cfg_rows 4) c04_S row_rank empty_bucket c04_h /\
  old_view (cfg_rows 4) empty_bucket [] /\ new_view (cfg_rows 4) empty_bucket c04_h (h_tree c04_h) /\
  (forall v, c04_S v -> val_inv 0 v) /\ (forall a b, c04_S a -> c04_S b -> md a = md b -> a = b).
Proof.
  split; [apply named_empty|].
  split; [intros n Hn; exfalso; apply Hn; reflexivity|].
  split.
  { split.
    - split.
      + apply wf_cons; [reflexivity|apply wf_nil|constructor].
      + constructor; [reflexivity|constructor].
    - split; [reflexivity|]. split; [reflexivity|].
      split; [intros k v []|]. split; [intros k tk []|]. discriminate. }
  split; [exists [], []; split; [constructor|reflexivity]|].
  split; [exists []; split; [constructor|reflexivity]|].
  split.
  - intros v ->. split; [reflexivity|]. exists empty_row. split; [reflexivity|].
    split; [reflexivity|]. split; [discriminate|]. intros _. split; [reflexivity|constructor].
  - intros a b -> ->. reflexivity.
Qed.
(* non-vacuity: a table written with 4 entries per node, emptied and committed again, is opened by
   a client that configures 16: its handle has branch factor 4, and so has the version it commits *)
Definition c04_set (cf : cfg (V := Z)) (h : handle) w k v := match kv_set cf h w (VInt k) v with Some h' => h' | None => h end.
Definition c04_tomb (cf : cfg (V := Z)) (h : handle) w k := match kv_tombstone cf h w (VInt k) with Some h' => h' | None => h end.
Example C04_branch_factor_witness :
  let ca := cfg_plain 0 4 in let cb := cfg_plain 0 16 in
  let fuel := Z.to_nat 100000 in
  let '(b1, r1, _) := run_plain fuel [] None empty_bucket
        (bind (open ca false None 100 [] []) (fun h0 =>
         bind (commit [] (c04_set ca h0 10 1 5)) (fun r1 =>
         bind (commit [] (kv_remove_tombstones (c04_tomb ca (fst r1) 20 1) 30)) (fun r2 => Ret (fst r2))))) in
  let '(b2, r2, _) := run_plain fuel [] None b1 (open cb false None 200 [] []) in
  match r1, r2 with
  | Done ha, Done hb =>
      h_bf ha = 4 /\ h_tree ha = [] /\ h_bf hb = 4 /\ h_tree hb = [] /\ h_merged hb <> [] /\
      (let '(_, r3, _) := run_plain fuel [] None b2 (commit [] (c04_set cb hb 300 1 7)) in
       match r3 with Done (hc, COk (Some _)) => h_bf hc = 4 /\ all_bf 4 (h_merged hc) | _ => False end)
  | _, _ => False
  end.
Proof. vm_compute. repeat split; try discriminate. intros k r [E|[]]. inversion E. reflexivity. Qed.

Print Assumptions C04_commit_mutation_order.
Print Assumptions C04_open_takes_the_stored_branch_factor.
Print Assumptions C04_commit_publishes_the_handles_branch_factor.
Print Assumptions C04_branch_factor_witness.
Print Assumptions C04_nothing_lost_acked_present.
Print Assumptions C04_bucket_is_replay_of_applied_mutations.
Print Assumptions C04_open_merges_all_current_versions.
Print Assumptions C04_cut_after_node_store.
Print Assumptions C04_reader_after_cut_commit_sees_old_or_new.
Print Assumptions C04_run_reader_after_cut_commit_sees_old_or_new.
Print Assumptions C04_rows_reader_sees_old_or_new.
Print Assumptions C04_kv_reader_sees_old_or_new.
Print Assumptions C04_view_hypotheses_hold.
