(* C03 — Concurrent open and commit never hide or lose a committed version.
   Interleaving model: Sched.v (any number of clients, a schedule = any list of client
   indices, one storage request per scheduled step).  [rs M p]: p deletes from current/ only
   names it copied under merged/ itself, and deletes nothing else.  Proved:
   - open, commit and the client operations (reader, read-write opener, writer) are [rs];
   - for EVERY schedule of such clients, from any bucket: every version name under current/ or
     merged/ stays under current/ or merged/, merged/ and node names only grow — no
     interleaving makes a committed version disappear;
   - a version listed under current/ and retired before the opener fetches it is under
     merged/ from then on, where Open now looks (fix 139e009);
   - the schedule that lost a version with the old Open is replayed on the model: the old Open
     returns an empty table (refuted), the current one returns the committed row.
   Not proved here: that the successor which retired a version contains its rows (this is the
   merge absorption of C01/C17 on the value domain; exercised by the scheduled-concurrency
   suite's final-read check).
   Statements with short proofs from SchedProofs / SchedExamples, followed by Print Assumptions. *)
From S3db Require Import Base KeyOrder Store KvProto Inst Sched Client.
From S3db.proofs Require Import CommitProofs SchedProofs SchedExamples.
Import ListNotations.
Open Scope Z_scope.

Section C03.
Context {V : Type}.
Variable oeq : obj V -> obj V -> bool.
Variable c : cfg (V := V).

Theorem C03_no_schedule_makes_a_version_disappear {R} sched (clients : list (prog V R)) b step log :
  sys_ok b clients ->
  let '(b', clients', _) := sched_run oeq clients sched b step log in
  mono b b' /\ sys_ok b' clients'.
Proof. exact (sched_nothing_disappears oeq sched clients b step log). Qed.

Theorem C03_open_retires_only_what_it_copied ro only when order corder M : rs M (open c ro only when order corder).
Proof. exact (open_rs c ro only when order corder M). Qed.
Theorem C03_commit_retires_only_what_it_copied order (h : handle (V := V)) M : rs M (commit order h).
Proof. exact (commit_rs order h M). Qed.
Theorem C03_reader_client ow order M : rs M (client_reader c ow order).
Proof. exact (client_reader_rs c ow order M). Qed.
Theorem C03_merger_client ow order corder M : rs M (client_merger c ow order corder).
Proof. exact (client_merger_rs c ow order corder M). Qed.
Theorem C03_writer_client ow order corder w k v M : rs M (client_writer c ow order corder w k v).
Proof. exact (client_writer_rs c ow order corder w k v M). Qed.

Theorem C03_retired_version_is_found_under_merged (b0 b1 b2 : bucket V) n :
  mono b0 b1 -> mono b1 b2 ->
  has (b_cur b0) n -> o_get n (b_cur b1) = None -> has (b_merged b2) n.
Proof.
  intros (M1 & _) (_ & M2 & _) Hc Hg. apply M2.
  destruct (M1 n (or_introl Hc)) as [H|H]; [unfold has in H; congruence|exact H].
Qed.
End C03.

Theorem C03_old_open_refuted :
  o_names (b_cur b1) = [2] /\
  let '(_, cl, _) := sched_run obj_eqb_plain [old_opener; writer] sched b1 0 [] in
  map result_of cl = [Some []; Some [VInt 100; VInt 201]].
Proof. exact old_open_loses_a_committed_version. Qed.

Theorem C03_current_open_on_the_same_schedule :
  let '(_, cl, _) := sched_run obj_eqb_plain [new_opener; writer] sched b1 0 [] in
  map result_of cl = [Some [VInt 100]; Some [VInt 100; VInt 201]].
Proof. exact new_open_sees_it. Qed.

Print Assumptions C03_no_schedule_makes_a_version_disappear.
Print Assumptions C03_open_retires_only_what_it_copied.
Print Assumptions C03_commit_retires_only_what_it_copied.
Print Assumptions C03_reader_client.
Print Assumptions C03_merger_client.
Print Assumptions C03_writer_client.
Print Assumptions C03_retired_version_is_found_under_merged.
Print Assumptions C03_old_open_refuted.
Print Assumptions C03_current_open_on_the_same_schedule.
