(* C09 — Vacuum never changes what the table contains.
   For EVERY tree, cutoff and writable handle:
   - the row phase of Vacuum (tombstone the rows deleted before the cutoff, purge tombstones)
     leaves the list of visible rows — keys, order, column values — exactly as it was, and a
     full-table scan returns exactly that list;
   - the version it then commits obeys the commit theorems of C04 (any fault plan, any crash
     point: nothing present is lost, an acknowledged version is complete);
   - history deletion never PUTs, and for every plan of transport faults the node objects it
     selects for deletion never include the root node of the vacuuming handle's own tree, of a
     non-candidate version of the history graph, or of a version under current/ outside the
     graph — or it fails before deleting anything; a cut anywhere in the deletions therefore
     only removes objects no retained version needs.
   Finding F-C09-1 (KNOWN_FINDINGS.txt) is outside these statements: it concerns a row whose
   delete marker is purged while ANOTHER current version, not merged by the vacuuming
   connection, still holds an older write of the row.
   Statements with short proofs from the files imported, followed by Print Assumptions. *)
From S3db Require Import Base KeyOrder RowMerge Tree Store KvProto Inst Stmt.
From S3db.proofs Require Import KeyOrderProofs TreeProofs ProtoProofs ExecProofs CommitProofs OpenProofs FaultProofs
     NamedProofs VacuumProofs HistoryDeleteProofs.
Import ListNotations.
Open Scope Z_scope.

Section C09.
Variable bf : Z.

Theorem C09_vacuum_keeps_the_visible_rows (h : rhandle) before :
  h_ro h = false -> wf (h_tree h) -> vals_ok (h_tree h) -> time_zero_nanos < before ->
  live_list (vacuumed bf h before) = live_list (h_tree h).
Proof. intros Hro Hwf Hok _. exact (vacuum_keeps_rows bf h before Hro Hwf Hok). Qed.

Theorem C09_full_scan_returns_the_visible_rows (t : tree (cval row)) gt :
  scan_fwd t {| w_min := None; w_max := None; w_gt := false; w_lt := false |} gt = live_list t.
Proof.
  induction t as [|[k v] t IH]; [reflexivity|]. cbn [scan_fwd w_max w_min]. unfold live_list. cbn [flat_map fst snd].
  destruct (row_live v); cbn [app]; [f_equal|]; exact IH.
Qed.

Variable oeq : obj row -> obj row -> bool.

Theorem C09_vacuum_commit_loses_nothing fuel plan crash i muts b order (h : rhandle) tr b' r tr' :
  run oeq fuel plan crash i muts b (commit order h) tr = (b', r, tr') -> r <> OutOfFuel ->
  (forall x, has (b_node b) x -> has (b_node b') x) /\
  (forall x, ver_present b x -> ver_present b' x) /\
  (forall e, r = Failed e -> b_cur b' = b_cur b /\ b_merged b' = b_merged b) /\
  (commit_needed h = true -> forall n, acked r n ->
     (h_dirty h = false -> forall l, h_link h = Some l -> has (b_node b) l) ->
     exists v, o_get n (b_cur b') = Some (OVer v) /\ v_parents v = h_msources h /\
               forall l, v_link v = Some l -> has (b_node b') l).
Proof. exact (run_post oeq plan crash (commit_bucket oeq plan crash order h muts b tr) fuel i b' r tr'). Qed.

Theorem C09_history_deletion_never_puts (h : rhandle) before : no_put (delete_historic (cfg_rows bf) h before).
Proof. exact (delete_historic_np (cfg_rows bf) h before). Qed.

Variable plan : list fault.
Hypothesis err_only : forall tr (rq : req row), plan_outcome plan tr rq <> OGone.

Theorem C09_retained_versions_keep_their_nodes b (h : rhandle) g cs before blocks :
  spec oeq plan b (keep_reachable (cfg_rows bf) h g cs before blocks)
       (fun res =>
          forall x, In x res ->
            In x blocks /\
            h_link h <> Some x /\
            (forall n v, kept_version b g cs (o_names (b_cur b)) (o_names (b_merged b)) before n = Some v ->
                         (In n (map fst g) \/ o_get n (b_cur b) <> None \/ o_get n (b_merged b) <> None) ->
                         v_link v <> Some x)).
Proof. exact (keep_reachable_spec (cfg_rows bf) oeq plan err_only b h g cs before blocks). Qed.

(* who is kept: versions of the history that stay, every version under current/, and superseded
   versions under merged/ that the cutoff retains *)
Theorem C09_kept_history_version (b : bucket row) g cs cur mrg before (kv : name * vobj) :
  find (fun kv' => fst kv' =? fst kv) g = Some kv -> mem (fst kv) cs = false ->
  kept_version b g cs cur mrg before (fst kv) = Some (snd kv).
Proof. intros Hf Hm. unfold kept_version. rewrite Hf. destruct kv as [k v]. cbn [fst snd] in *. rewrite Hm. reflexivity. Qed.
(* [Proof using oeq]: like the other theorems of the section, the next two take its [oeq] as an argument,
   though nothing in them needs it *)
Theorem C09_kept_current_version (b : bucket row) g cs mrg before n v :
  ver_in b [PCur] n = Some v ->
  (find (fun kv' => fst kv' =? n) g = None \/ mem n cs = true) ->
  kept_version b g cs (o_names (b_cur b)) mrg before n = Some v.
Proof using oeq.
  intros Hv Hcase. unfold kept_version. pose proof (ver_in_listed b PCur n v Hv) as Mc. cbn [sel] in Mc.
  destruct Hcase as [Hf|Hm].
  - rewrite Hf, Mc, Hv. reflexivity.
  - destruct (find (fun kv' => fst kv' =? n) g) as [[k0 v0]|]; [rewrite Hm|]; rewrite Mc, Hv; reflexivity.
Qed.
Theorem C09_kept_retained_superseded_version (b : bucket row) g cs before n v :
  find (fun kv' => fst kv' =? n) g = None -> o_get n (b_cur b) = None -> mem n cs = false ->
  ver_in b [PMerged] n = Some v -> retained_by_cutoff before v = true ->
  kept_version b g cs (o_names (b_cur b)) (o_names (b_merged b)) before n = Some v.
Proof using oeq.
  intros Hf Hc Hm Hv Hr. unfold kept_version. rewrite Hf.
  assert (Mc : mem n (o_names (b_cur b)) = false).
  { apply not_true_is_false. rewrite mem_o_names. intros H. exact (H Hc). }
  pose proof (ver_in_listed b PMerged n v Hv) as Mm. cbn [sel] in Mm.
  rewrite Mc, Mm, Hm, Hv, Hr. reflexivity.
Qed.
End C09.

(* non-vacuity: a two-row table (one live row, one row deleted at 50) vacuumed with cutoff 60
   keeps its visible rows, and the deleted row is gone *)
Definition c09_h : rhandle :=
  {| h_ro := false;
     h_tree := [(VInt 1, mk_set 40 {| del := false; doff := 0; cols := [Some {| uoff := 0; cv := VInt 7 |}] |});
                (VInt 2, mk_set 50 {| del := true; doff := 0; cols := [] |})];
     h_dirty := false; h_link := None; h_created := Some 7; h_source := None; h_msources := [];
     h_mode := 1; h_bf := 4; h_merged := []; h_tombstoned := false; h_conf := 0 |}.
Example C09_witness :
  live_list (vacuumed 4 c09_h 60) = live_list (h_tree c09_h) /\
  length (vacuumed 4 c09_h 60) = 1%nat /\ length (h_tree c09_h) = 2%nat.
Proof. vm_compute. repeat split. Qed.

Print Assumptions C09_vacuum_keeps_the_visible_rows.
Print Assumptions C09_full_scan_returns_the_visible_rows.
Print Assumptions C09_vacuum_commit_loses_nothing.
Print Assumptions C09_history_deletion_never_puts.
Print Assumptions C09_retained_versions_keep_their_nodes.
Print Assumptions C09_kept_history_version.
Print Assumptions C09_kept_current_version.
Print Assumptions C09_kept_retained_superseded_version.
Print Assumptions C09_witness.
