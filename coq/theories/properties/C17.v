(* C17 — The key-value layer keeps its documented last-write and tombstone rules.
   Statements, each a short corollary of a theorem in proofs/, followed by Print Assumptions. *)
From S3db Require Import Base RowMerge.
From S3db Require Import Tree.
From S3db.proofs Require Import Selector RowMergeProofs TreeProofs MergeAllProofs.
Import ListNotations.
Open Scope Z_scope.

Section C17.
Context {V : Type}.

(* the rules, pairwise: a tombstone beats every value regardless of time; among tombstones
   the earliest is kept; among values the latest time wins *)
Theorem C17_tombstone_dominates (t v : cval V) :
  tombstoned t = true -> tombstoned v = false ->
  last_write_wins t v = t /\ last_write_wins v t = t.
Proof. exact (tombstone_beats_value t v). Qed.

Theorem C17_earliest_tombstone_kept (a b : cval V) :
  tombstoned a = true -> tombstoned b = true -> tomb a < tomb b ->
  last_write_wins a b = a /\ last_write_wins b a = a.
Proof. exact (earliest_tombstone_kept a b). Qed.

Theorem C17_latest_value_wins (a b : cval V) :
  tombstoned a = false -> tombstoned b = false -> md b < md a ->
  last_write_wins a b = a /\ last_write_wins b a = a.
Proof. exact (latest_value_wins a b). Qed.

(* for ANY number of values met in ANY order: the merged value is the one of minimal rank
   (earliest tombstone, else latest value) among all of them *)
Theorem C17_merged_value_is_rank_minimum (a : cval V) (l : list (cval V)) :
  is_min _ lww_rank (a :: l) (fold_left last_write_wins l a).
Proof.
  apply (fold_is_min _ (fun _ => True) lww_rank last_write_wins
           (fun a b _ _ => lww_sel a b) (fun a b _ _ => lww_min a b)); auto using Forall_True.
Qed.

(* hence independent of merge order and repetition (distinct times, or identical values) *)
Theorem C17_merge_order_irrelevant (a : cval V) l a' l' :
  (forall x, In x (a :: l) <-> In x (a' :: l')) ->
  pairwise_compat _ lww_rank (a :: l) ->
  fold_left last_write_wins l a = fold_left last_write_wins l' a'.
Proof.
  apply (fold_same_set _ (fun _ => True) lww_rank last_write_wins
           (fun a b _ _ => lww_sel a b) (fun a b _ _ => lww_min a b)); auto using Forall_True.
Qed.

(* and of grouping into intermediate merged versions *)
Theorem C17_merge_grouping_irrelevant (a1 : cval V) l1 a2 l2 :
  pairwise_compat _ lww_rank (a1 :: l1 ++ a2 :: l2) ->
  last_write_wins (fold_left last_write_wins l1 a1) (fold_left last_write_wins l2 a2)
  = fold_left last_write_wins (l1 ++ a2 :: l2) a1.
Proof.
  apply (fold_grouping _ (fun _ => True) lww_rank last_write_wins
           (fun a b _ _ => lww_sel a b) (fun a b _ _ => lww_min a b)); auto using Forall_True.
Qed.

(* a local Set/Tombstone (Tree.update) stores an entry of minimal rank among {new, existing} *)
Theorem C17_local_update_keeps_winner src (cv ex : cval V) :
  rle (lww_rank (crdt_update src cv (Some ex))) (lww_rank cv) /\
  rle (lww_rank (crdt_update src cv (Some ex))) (lww_rank ex).
Proof.
  pose proof (lww_min cv ex) as H. unfold last_write_wins in H. unfold crdt_update.
  destruct (lww_pick cv ex); [|exact H].
  unfold lww_rank, tombstoned in *. cbn [md tomb]. exact H.
Qed.

(* whole stores: folding the same SET of versions in any order / with repetitions gives
   the same value for every key (values pairwise compatible: distinct ranks or identical) *)
Theorem C17_store_merge_order_irrelevant (veq : cval V -> cval V -> bool) (S : cval V -> Prop) acc gs acc' gs' :
  (forall a b, veq a b = true -> a = b) ->
  (forall a b, S a -> S b -> lww_rank a = lww_rank b -> a = b) ->
  Forall (fun t => wf t /\ vals_in S t) (acc :: gs) ->
  Forall (fun t => wf t /\ vals_in S t) (acc' :: gs') ->
  (forall t, In t (acc :: gs) <-> In t (acc' :: gs')) ->
  exists t1 t2, merge_list lww_f veq acc gs = Some t1 /\ merge_list lww_f veq acc' gs' = Some t2 /\
                wf t1 /\ wf t2 /\ forall k, D k -> t_get k t1 = t_get k t2.
Proof.
  intros Hv Hc.
  exact (merge_same_versions lww_f last_write_wins veq S (fun a b _ _ => eq_refl) lww_rank
           (fun a b _ _ => lww_sel a b) (fun a b _ _ => lww_min a b) Hc Hv acc gs acc' gs').
Qed.

End C17.

Example C17_nonvacuous :
  let a := {| md := 10; tomb := 0; prev := 0; payload := Some 1 |} in
  let b := {| md := 20; tomb := 0; prev := 0; payload := Some 2 |} in
  let t := {| md := 5; tomb := 5; prev := 0; payload := None |} in
  fold_left last_write_wins [b; t] a = t /\ fold_left last_write_wins [t; a] b = t /\
  fold_left last_write_wins [a] b = b.
Proof. vm_compute. auto. Qed.

Print Assumptions C17_tombstone_dominates.
Print Assumptions C17_earliest_tombstone_kept.
Print Assumptions C17_latest_value_wins.
Print Assumptions C17_merged_value_is_rank_minimum.
Print Assumptions C17_merge_order_irrelevant.
Print Assumptions C17_merge_grouping_irrelevant.
Print Assumptions C17_local_update_keeps_winner.
Print Assumptions C17_store_merge_order_irrelevant.
Print Assumptions C17_nonvacuous.
