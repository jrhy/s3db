(* C16 — Every committed version is complete and well-formed on its own.
   For EVERY fault plan, crash point, bucket, handle and retire order:
   - an acknowledged commit is under current/, lists the handle's sources as parents, and the
     root node it links to is stored; the node stored is exactly the tree the writer had in
     memory (commit_shape: PUT node/nn (ONode (h_tree h)));
   - a commit when nothing changed issues no request at all;
   - stored objects are immutable: a name denotes one content for ever, across any history;
   - keys stay strictly increasing under insert, delete and merge (wf) — also in the node-level
     tree of several levels (Mast.v): splitting, growing, shrinking and merging nodes keep the
     in-order contents, so what is stored is the sorted map the writer had;
   - the node codec returns exactly what was encoded (keys, values, child links including
     absent ones) for every node whose links are absent or non-empty names; the decoder as it
     was before fix c8c943e is refuted.
   Statements with short proofs from the files imported, followed by Print Assumptions. *)
From S3db Require Import Base KeyOrder Tree Store KvProto NodeCodec Mast.
From S3db.proofs Require Import TreeProofs ExecProofs CommitProofs NamedProofs NodeCodecProofs MastProofs MastLevelProofs MastCursorProofs MastNeProofs MastCanonProofs.
Import ListNotations.
Open Scope Z_scope.

Section C16.
Context {V : Type}.
Variable oeq : obj V -> obj V -> bool.

Theorem C16_acknowledged_version_is_complete fuel plan crash i muts b order (h : handle (V := V)) tr b' r tr' :
  run oeq fuel plan crash i muts b (commit order h) tr = (b', r, tr') -> r <> OutOfFuel ->
  (forall x, has (b_node b) x -> has (b_node b') x) /\
  (forall x, ver_present b x -> ver_present b' x) /\
  (forall e, r = Failed e -> b_cur b' = b_cur b /\ b_merged b' = b_merged b) /\
  (commit_needed h = true -> forall n, acked r n ->
     (h_dirty h = false -> forall l, h_link h = Some l -> has (b_node b) l) ->
     exists v, o_get n (b_cur b') = Some (OVer v) /\ v_parents v = h_msources h /\
               forall l, v_link v = Some l -> has (b_node b') l).
Proof. exact (run_post oeq plan crash (commit_bucket oeq plan crash order h muts b tr) fuel i b' r tr'). Qed.

Theorem C16_stored_tree_is_the_writers_tree_and_redundant_commit_writes_nothing
        fuel plan crash i muts b order (h : handle (V := V)) tr b' r tr' :
  run oeq fuel plan crash i muts b (commit order h) tr = (b', r, tr') -> r <> OutOfFuel ->
  exists ext, tr' = ext ++ tr /\
    commit_shape h (succ_muts ext) /\
    (commit_needed h = false -> ext = []) /\
    (commit_needed h = true -> forall n, acked r n ->
       exists v, In (RPut PCur n (OVer v)) (succ_muts ext)) /\
    (forall e, r = Failed e -> ~ exists n v, In (RPut PCur n (OVer v)) (succ_muts ext)).
Proof. exact (run_post oeq plan crash (commit_protocol oeq plan crash order h muts b tr) fuel i b' r tr'). Qed.

Hypothesis oeq_eq : forall a b, oeq a b = true -> a = b.
Theorem C16_stored_objects_are_immutable b b' p p' n o o' :
  Named b -> reach oeq b b' ->
  o_get n (sel p b) = Some o -> o_get n (sel p' b') = Some o' -> o = o'.
Proof. exact (name_immutable oeq oeq_eq b b' p p' n o o'). Qed.

(* keys strictly increasing in scan order *)
Theorem C16_insert_keeps_keys_increasing k (v : V) t : D k -> wf t -> wf (t_insert k v t).
Proof. exact (insert_wf k v t). Qed.
Theorem C16_delete_keeps_keys_increasing k (t : tree V) : wf t -> wf (t_delete k t).
Proof. exact (delete_wf k t). Qed.

(* the node-level tree: rebuilding nodes never changes the in-order contents *)
Theorem C16_growing_a_tree_keeps_its_contents promote (n : mt V) : flat (grow_node promote n) = flat n.
Proof. exact (flat_grow promote n). Qed.
Theorem C16_shrinking_a_tree_keeps_its_contents (n : mt V) : flat (shrink_node n) = flat n.
Proof. exact (flat_shrink n). Qed.
Theorem C16_splitting_a_node_keeps_its_contents (n : mt V) k a b : D k -> wf (flat n) ->
  split k n = Some (a, b) -> flat a ++ flat b = flat n /\ below k (flat a) /\ all_above k (flat b).
Proof. intros Dk Hw E. pose proof (proj1 split_flat n k Dk Hw) as H. rewrite E in H. exact H. Qed.
Theorem C16_multilevel_insert_keeps_keys_increasing (m m' : mast V) k v : D k -> wf (mast_flat m) ->
  mast_insert m k v = Some m' ->
  mast_flat m' = t_insert k v (mast_flat m) /\ wf (mast_flat m') /\
  m_size m' = (if t_get k (mast_flat m) then m_size m else m_size m + 1).
Proof. exact (mast_insert_refines m m' k v). Qed.
End C16.

(* the layout is a function of contents and height: two trees that keep the level discipline, link
   no empty node and hold the same entries are the same tree node for node — equal contents
   serialise to equal node objects *)
Theorem C16_layout_is_determined_by_contents_and_height {V : Type} (lay : sval -> nat) (n1 n2 : mt V) h :
  lvr lay h n1 -> lvr lay h n2 -> ne n1 -> ne n2 -> flat n1 = flat n2 -> n1 = n2.
Proof. exact (canon_root lay n1 h n2). Qed.
(* the same for two handles that meet the invariant (the height is part of the statement: it
   follows the history of growing and shrinking) *)
Theorem C16_reachable_trees_with_equal_contents_and_height_are_equal {V : Type} (bf : Z) (P : sval -> Prop) (m1 m2 : mast V) :
  MInv2 bf P m1 -> MInv2 bf P m2 -> m_height m1 = m_height m2 -> mast_flat m1 = mast_flat m2 ->
  node_of (m_root m1) = node_of (m_root m2).
Proof.
  intros [(_ & _ & Hl1 & _) Hn1] [(_ & _ & Hl2 & _) Hn2] Hh Hf.
  rewrite Hh in Hl1. eapply (canon_root (klayer bf)); eauto.
  unfold mast_flat in Hf. rewrite !flat_node_of. exact Hf.
Qed.

Theorem C16_node_codec_roundtrip n : links_ok n -> node_roundtrip n = n.
Proof. exact (node_roundtrip_id n). Qed.
Theorem C16_node_codec_keeps_shape n :
  n_keys (node_roundtrip n) = n_keys n /\ n_vals (node_roundtrip n) = n_vals n /\
  length (n_links (node_roundtrip n)) = length (n_links n).
Proof.
  destruct n as [ks vs ls]. unfold node_roundtrip, unmarshal_node, marshal_node. cbn.
  repeat split. rewrite !map_length. reflexivity.
Qed.
(* the decoder as it was before fix c8c943e loses absent links *)
Theorem C16_old_decoder_refuted : exists n, links_ok n /\ unmarshal_node_old (marshal_node n) <> n.
Proof.
  exists {| n_keys := [VInt 1%Z]; n_vals := []; n_links := [None; None] |}. split.
  - repeat constructor; discriminate.
  - discriminate.
Qed.

Print Assumptions C16_acknowledged_version_is_complete.
Print Assumptions C16_stored_tree_is_the_writers_tree_and_redundant_commit_writes_nothing.
Print Assumptions C16_stored_objects_are_immutable.
Print Assumptions C16_insert_keeps_keys_increasing.
Print Assumptions C16_delete_keeps_keys_increasing.
Print Assumptions C16_node_codec_roundtrip.
Print Assumptions C16_node_codec_keeps_shape.
Print Assumptions C16_old_decoder_refuted.
Print Assumptions C16_growing_a_tree_keeps_its_contents.
Print Assumptions C16_shrinking_a_tree_keeps_its_contents.
Print Assumptions C16_splitting_a_node_keeps_its_contents.
Print Assumptions C16_multilevel_insert_keeps_keys_increasing.
Print Assumptions C16_layout_is_determined_by_contents_and_height.
Print Assumptions C16_reachable_trees_with_equal_contents_and_height_are_equal.
