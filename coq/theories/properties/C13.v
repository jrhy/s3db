(* C13 — A read-only table never modifies the bucket.
   For EVERY fault plan, crash point, starting bucket and statement: the programs a read-only
   connection runs contain no PUT and no DELETE, so running them leaves the three object
   prefixes as they were.  Statements with short proofs from SessionProofs / ProtoProofs, followed by
   Print Assumptions. *)
From S3db Require Import Base RowMerge Store KvProto Stmt SqlSession.
From S3db.proofs Require Import ProtoProofs SessionProofs.
Import ListNotations.
Open Scope Z_scope.

Section C13.
Variable cfg : KvProto.cfg (V := row).
Variable now : time.

(* running a program without mutating requests: stores unchanged, trace has no PUT/DELETE *)
Theorem C13_no_mutation_runs {A} (oeq : obj row -> obj row -> bool) fuel plan crash i muts b (p : prog row A) tr :
  no_mut p -> trace_nomut tr ->
  let '(b', _, tr') := run oeq fuel plan crash i muts b p tr in
  same_stores b b' /\ trace_nomut tr'.
Proof. exact (run_no_mut oeq fuel plan crash i muts b p tr). Qed.

(* opening (any number of unmerged versions, any historic version list) *)
Theorem C13_open only when order corder : no_mut (open cfg true only when order corder).
Proof. exact (open_ro_nm cfg only when order corder). Qed.
Theorem C13_create sc ncols order corder : no_mut (sql_create cfg now sc true ncols order corder).
Proof. unfold sql_create. apply no_mut_bind; [apply open_ro_nm|]. intros h. constructor. Qed.
Theorem C13_insert sc corder key vals : ro_session sc -> no_mut (sql_insert cfg now sc corder key vals).
Proof. intros Hs. apply sql_write_ro_nm; [exact Hs|]. intros tb t. apply body_insert_ro. Qed.
Theorem C13_update sc corder key assign : ro_session sc -> no_mut (sql_update cfg now sc corder key assign).
Proof.
  intros Hs. apply sql_write_ro_nm; [exact Hs|]. intros tb t R.
  rewrite fold_keeps; [exact R|]. intros kr. apply ro_update_keeps. exact R.
Qed.
Theorem C13_delete sc corder key : ro_session sc -> no_mut (sql_delete cfg now sc corder key).
Proof.
  intros Hs. apply sql_write_ro_nm; [exact Hs|]. intros tb t R.
  rewrite fold_keeps; [exact R|]. intros kr. apply ro_delete_keeps. exact R.
Qed.
Theorem C13_commit sc corder : ro_session sc -> no_mut (sql_commit sc corder).
Proof.
  intros Hs. unfold sql_commit, ro_session in *. destruct (negb (sc_explicit sc)); [constructor|].
  destruct (sc_tb sc) as [tb|]; [|constructor]. destruct (sc_joined sc); [|constructor].
  apply finish_ok_ro_nm. exact Hs.
Qed.
Theorem C13_refresh sc order corder : ro_session sc -> no_mut (sql_refresh cfg now sc order corder).
Proof.
  intros Hs. unfold sql_refresh, ro_session in *. destruct (sc_tb sc) as [tb|]; [|constructor].
  destruct Hs as (A & _ & _). rewrite A.
  apply no_mut_bind; [apply open_ro_nm|]. intros h. constructor.
Qed.
Theorem C13_vacuum sc corder before : ro_session sc -> no_mut (sql_vacuum cfg sc corder before).
Proof. exact (ro_vacuum_nm cfg sc corder before). Qed.
Theorem C13_changes sc from to : no_mut (sql_changes cfg now sc from to).
Proof.
  unfold sql_changes. destruct (sc_tb sc); [|constructor].
  apply no_mut_bind; [apply open_ro_nm|]. intros hf.
  apply no_mut_bind; [apply open_ro_nm|]. intros ht. constructor.
Qed.
Theorem C13_history_walk fuel k after round : no_mut (trace_history cfg fuel k after round).
Proof. exact (trace_history_nm cfg fuel k after round). Qed.

(* write statements fail and leave the table as it was *)
Theorem C13_insert_fails tb t key vals : ro_table tb ->
  tbl_insert cfg tb t key vals = (tb, ErrNotNull) \/ tbl_insert cfg tb t key vals = (tb, ErrPK) \/
  tbl_insert cfg tb t key vals = (tb, ErrOther) \/ tbl_insert cfg tb t key vals = (tb, Panic).
Proof. exact (ro_insert cfg tb t key vals). Qed.
Theorem C13_update_keeps tb t key a : ro_table tb -> fst (tbl_update cfg tb t key a) = tb.
Proof. exact (ro_update_keeps cfg tb t key a). Qed.
Theorem C13_delete_keeps tb t key : ro_table tb -> fst (tbl_delete cfg tb t key) = tb.
Proof. exact (ro_delete_keeps cfg tb t key). Qed.
End C13.

Print Assumptions C13_no_mutation_runs.
Print Assumptions C13_open.
Print Assumptions C13_create.
Print Assumptions C13_insert.
Print Assumptions C13_update.
Print Assumptions C13_delete.
Print Assumptions C13_commit.
Print Assumptions C13_refresh.
Print Assumptions C13_vacuum.
Print Assumptions C13_changes.
Print Assumptions C13_history_walk.
Print Assumptions C13_insert_fails.
Print Assumptions C13_update_keeps.
Print Assumptions C13_delete_keeps.
