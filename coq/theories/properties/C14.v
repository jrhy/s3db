(* C14 — Storage faults surface as errors; never as wrong answers.
   [spec b p P]: every execution of p from bucket b under the fault plan leaves b unchanged and
   either FAILS or returns a value satisfying P.  For EVERY plan that injects transport errors
   / expired deadlines at any positions, any number of times:
   - opening the table fails or returns the complete merge of all versions under current/;
   - opening given versions (s3db_changes, history reads) fails or returns their merge;
   - (s3db_changes fails or answers from the two complete versions: C12_faults_fail_the_query_or_answer_completely);
   and for EVERY plan (including "no such object" answers) and crash point:
   - a commit reported as successful is under current/ with its root node stored, a failed
     commit leaves current/ and merged/ untouched, nothing present before is lost — so once the
     fault clears a new open sees all previously committed data;
   - read-only programs never modify the bucket.
   Not covered by a theorem (runtime behaviour the model cannot exhibit): goroutine hangs and Go
   panics; the harness bounds every statement by a wall-clock timeout and recovers panics.
   Statements with short proofs from the files imported, followed by Print Assumptions. *)
From S3db Require Import Base RowMerge Store KvProto.
From S3db.proofs Require Import ProtoProofs ExecProofs CommitProofs OpenProofs FaultProofs.
Import ListNotations.
Open Scope Z_scope.

Section C14.
Context {V : Type}.
Variable c : cfg (V := V).
Variable oeq : obj V -> obj V -> bool.
Variable plan : list fault.
Hypothesis err_only : forall tr (rq : req V), plan_outcome plan tr rq <> OGone.
Variable S : cval V -> Prop.
Variable g : cval V -> cval V -> cval V.
Hypothesis f_total : forall x y, S x -> S y -> c_merge c x y = Some (g x y).
Hypothesis g_closed : forall x y, S x -> S y -> S (g x y).

Theorem C14_open_fails_or_is_complete when order corder b :
  bucket_ok c S b ->
  spec oeq plan b (open c true None when order corder)
       (fun h => exists ts,
          Forall2 (fun n t => tree_named b n = Some t) (apply_order order (o_names (b_cur b))) ts /\
          view_fold c ts = Some (h_tree h) /\
          h_msources h = apply_order order (o_names (b_cur b)) /\ h_ro h = true).
Proof.
  intros Hb. apply (spec_of_wp oeq plan err_only), (open_ro_wp c oeq S g f_total g_closed) with (z := c_bf c); auto.
  exact (proj1 (bucket_ok_opens c S b) Hb).
Qed.

Theorem C14_historic_open_fails_or_is_complete vsn when order corder vs ts b :
  versions_ok_in c S b [PCur; PMerged] (apply_order_multi order vsn) vs ts ->
  spec oeq plan b (open c true (Some vsn) when order corder)
       (fun h => view_fold c ts = Some (h_tree h) /\ h_ro h = true).
Proof.
  intros Hok. apply versions_ok_opens in Hok.
  eapply (spec_of_wp oeq plan err_only), (open_hist_wp c oeq S g f_total g_closed); eauto.
Qed.
End C14.

Section C14_any_plan.
Context {V : Type}.
Variable oeq : obj V -> obj V -> bool.

Theorem C14_acknowledged_write_is_stored_and_failed_commit_changes_nothing
        fuel plan crash i muts b order (h : handle (V := V)) tr b' r tr' :
  run oeq fuel plan crash i muts b (commit order h) tr = (b', r, tr') -> r <> OutOfFuel ->
  (forall x, has (b_node b) x -> has (b_node b') x) /\
  (forall x, ver_present b x -> ver_present b' x) /\
  (forall e, r = Failed e -> b_cur b' = b_cur b /\ b_merged b' = b_merged b) /\
  (commit_needed h = true -> forall n, acked r n ->
     (h_dirty h = false -> forall l, h_link h = Some l -> has (b_node b) l) ->
     exists v, o_get n (b_cur b') = Some (OVer v) /\ v_parents v = h_msources h /\
               forall l, v_link v = Some l -> has (b_node b') l).
Proof. exact (run_post oeq plan crash (commit_bucket oeq plan crash order h muts b tr) fuel i b' r tr'). Qed.

Theorem C14_reads_never_modify_the_bucket {A} fuel plan crash i muts b (p : prog V A) tr :
  no_mut p -> trace_nomut tr ->
  let '(b', _, tr') := run oeq fuel plan crash i muts b p tr in
  same_stores b b' /\ trace_nomut tr'.
Proof. exact (run_no_mut oeq fuel plan crash i muts b p tr). Qed.
End C14_any_plan.

Print Assumptions C14_open_fails_or_is_complete.
Print Assumptions C14_historic_open_fails_or_is_complete.
Print Assumptions C14_acknowledged_write_is_stored_and_failed_commit_changes_nothing.
Print Assumptions C14_reads_never_modify_the_bucket.
