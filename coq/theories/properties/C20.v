(* C20 — Table definitions are accepted, declared and rejected consistently.
   Model: Schema.v (token level: names unquoted, keywords and types recognised).  For EVERY
   token list and EVERY argument list:
   - an accepted column specification contains no UNIQUE and no token without a grammar rule
     (DEFAULT, literals, ...); its column names are pairwise distinct; it has at most one key
     column, which is one of the columns, at the reported index; the declared columns are
     exactly the specified ones in order; a table without key gets the hidden rowid;
   - an accepted argument list has pairwise distinct options, all of them known, numeric values
     well formed, every valued option with a value, and its columns option decides the
     declaration; hence unknown, duplicated or malformed arguments, composite keys, UNIQUE and
     DEFAULT are rejected.
   Not modelled (exercised by the suite through rendering in many spellings): the lexical level
   (regular expressions, quoting, case folding) and SQLite's reading of the declared text.
   Statements with short proofs from SchemaProofs, followed by Print Assumptions. *)
From S3db Require Import Base Schema.
From S3db.proofs Require Import SchemaProofs.
Import ListNotations.
Open Scope Z_scope.

Theorem C20_accepted_specification_is_declared_as_specified ts d :
  convert_schema ts = Some d ->
  exists s, parse_schema ts = Some s /\
    d_cols d = s_cols s /\
    NoDup (map c_name (d_cols d)) /\
    (length (s_pk s) <= 1)%nat /\
    (d_rowid d = true <-> s_pk s = []) /\
    (forall k, s_pk s = [k] ->
       exists c, nth_error (d_cols d) (Z.to_nat (d_keycol d)) = Some c /\ c_name c = k).
Proof. exact (accepted_matches_specification ts d). Qed.

Theorem C20_unique_is_rejected ts : In KUnique ts -> convert_schema ts = None.
Proof. intros H. exact (unsupported_is_rejected ts (or_introl H)). Qed.

Theorem C20_default_and_unknown_tokens_are_rejected ts : In KOther ts -> convert_schema ts = None.
Proof. intros H. exact (unsupported_is_rejected ts (or_intror H)). Qed.

Theorem C20_accepted_arguments_are_well_formed args d ro :
  table_args args = ArgOK d ro ->
  NoDup (map fst args) /\
  (forall k v, In (k, v) args ->
     known_opt k /\
     (k = 0 -> exists ts, v = OVCols ts /\ convert_schema ts <> None) /\
     ((k = 1 \/ k = 2) -> v = OVInt true) /\
     ((k = 4 \/ k = 5 \/ k = 6) -> v <> OVNone)) /\
  exists ts, In (0, OVCols ts) args /\ convert_schema ts = Some d.
Proof.
  intros H. destruct (arg_loop_spec _ _ _ _ _ _ H) as (B & A & C).
  split; [exact B|]. split; [intros k v Hin; apply arg_ok_good, (proj2 (A k v Hin))|].
  destruct C as [C|C]; [discriminate|exact C].
Qed.

(* non-vacuity and the boundary cases, by computation *)
Example C20_examples :
  (* a integer primary key, b not null : accepted, key column 0 *)
  (exists d, convert_schema [KName [97]; KType [105]; KPrimaryKey; KComma; KName [98]; KNotNull] = Some d /\ d_keycol d = 0 /\ d_rowid d = false) /\
  (* primary key (a, b), a, b : composite, rejected *)
  convert_schema [KPrimaryKey; KLParen; KName [97]; KComma; KName [98]; KRParen; KComma; KName [97]; KComma; KName [98]] = None /\
  (* a, a : duplicate column, rejected *)
  convert_schema [KName [97]; KComma; KName [97]] = None /\
  (* a primary key, b primary key : rejected *)
  convert_schema [KName [97]; KPrimaryKey; KComma; KName [98]; KPrimaryKey] = None /\
  (* primary key (c), a : key without column, rejected *)
  convert_schema [KPrimaryKey; KLParen; KName [99]; KRParen; KComma; KName [97]] = None /\
  (* duplicated option, unknown option, missing columns, malformed number, missing value *)
  table_args [(3, OVNone); (3, OVNone)] = ArgErr /\
  table_args [(0, OVCols [KName [97]]); (7, OVText)] = ArgErr /\
  table_args [(3, OVNone)] = ArgErr /\
  table_args [(0, OVCols [KName [97]]); (2, OVInt false)] = ArgErr /\
  table_args [(0, OVCols [KName [97]]); (1, OVNone)] = ArgErr.
Proof. vm_compute. repeat split. eexists. repeat split. Qed.

Print Assumptions C20_accepted_specification_is_declared_as_specified.
Print Assumptions C20_unique_is_rejected.
Print Assumptions C20_default_and_unknown_tokens_are_rejected.
Print Assumptions C20_accepted_arguments_are_well_formed.
Print Assumptions C20_examples.
