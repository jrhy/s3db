(* C01 — Multi-writer merge converges regardless of merge order, grouping and repetition.
   Statements, each a short corollary of a theorem in proofs/, followed by Print Assumptions. *)
From S3db Require Import Base KeyOrder RowMerge.
From S3db Require Import Tree Inst.
From S3db.proofs Require Import Selector RowMergeProofs TreeProofs MergeAllProofs ConvergenceProofs.
Import ListNotations.
Open Scope Z_scope.

(* Row level.  S = the set of entry values for one key that can meet in merges: all
   SQL-reachable (val_inv: what INSERT/UPDATE/DELETE store, see C06/C02 files) and pairwise
   compatible (distinct write times, or byte-identical retries). mv = mergeValues. *)
Section C01.
Variable n : nat.
Variable S : cval row -> Prop.
Hypothesis S_inv : forall v, S v -> val_inv n v.
Hypothesis S_compat : forall a b, S a -> S b -> md a = md b -> a = b.

(* mergeValues returns the newer entry unchanged (both argument orders) *)
Theorem C01_merge_values_newer (a b : cval row) :
  val_inv n a -> val_inv n b -> md a < md b ->
  merge_values a b = Some b /\ merge_values b a = Some b.
Proof. exact (merge_values_newer n a b). Qed.

Theorem C01_merge_values_idempotent (a : cval row) : val_inv n a -> merge_values a a = Some a.
Proof. exact (merge_values_same n a). Qed.

(* ORDER and REPETITION: any two merge sequences over the same set of values agree *)
Theorem C01_order_and_repetition a l a' l' :
  S a -> Forall S l -> S a' -> Forall S l' ->
  (forall x, In x (a :: l) <-> In x (a' :: l')) ->
  fold_left mv l a = fold_left mv l' a'.
Proof.
  intros Sa Sl Sa' Sl' Hs.
  apply (fold_same_set _ S row_rank mv (mv_sel n S S_inv) (mv_min n S S_inv)); auto.
  apply (S_pairwise S S_compat). constructor; assumption.
Qed.

(* GROUPING: merging two intermediate merged results = merging everything at once *)
Theorem C01_grouping a1 l1 a2 l2 :
  S a1 -> Forall S l1 -> S a2 -> Forall S l2 ->
  mv (fold_left mv l1 a1) (fold_left mv l2 a2) = fold_left mv (l1 ++ a2 :: l2) a1.
Proof.
  intros S1 Sl1 S2 Sl2.
  apply (fold_grouping _ S row_rank mv (mv_sel n S S_inv) (mv_min n S S_inv)); auto.
  apply (S_pairwise S S_compat). constructor; [|apply Forall_app]; auto.
Qed.

(* the merged entry is the newest one (S_compat is a premise of the section, not needed here
   nor for C01_table_lookup_is_join: only uniqueness of the newest entry rests on it) *)
Theorem C01_merged_is_newest a l : S a -> Forall S l ->
  is_min _ row_rank (a :: l) (fold_left mv l a).
Proof using S_inv S_compat. exact (fold_is_min _ S row_rank mv (mv_sel n S S_inv) (mv_min n S S_inv) l a). Qed.
(* TABLE level.  A version is a well-formed tree (strictly increasing safe keys) whose entries
   are in S.  Folding ANY two lists with the same SET of versions - any order, any number of
   repetitions of a version - yields the same row for every key; and the fold itself is, per
   key, the join of the entries the versions hold for that key. *)
Theorem C01_table_order_and_repetition acc gs acc' gs' :
  Forall (fun t => wf t /\ vals_in S t) (acc :: gs) ->
  Forall (fun t => wf t /\ vals_in S t) (acc' :: gs') ->
  (forall t, In t (acc :: gs) <-> In t (acc' :: gs')) ->
  exists t1 t2, merge_versions acc gs = Some t1 /\ merge_versions acc' gs' = Some t2 /\
                wf t1 /\ wf t2 /\ forall k, D k -> t_get k t1 = t_get k t2.
Proof. exact (rows_converge n S S_inv S_compat acc gs acc' gs'). Qed.

Theorem C01_table_lookup_is_join acc gs :
  wf acc -> vals_in S acc -> Forall (fun t => wf t /\ vals_in S t) gs ->
  exists t', merge_versions acc gs = Some t' /\ wf t' /\ vals_in S t' /\
    forall k, D k -> t_get k t' = fold_left (join_opt mv (cval_eqb row_eqb)) (map (t_get k) gs) (t_get k acc).
Proof using S_inv S_compat.
  exact (merge_list_pointwise merge_values mv (cval_eqb row_eqb) S (mv_total n S S_inv) (mv_sel n S S_inv) gs acc).
Qed.
End C01.

(* Outside the SQL-reachable domain (rows with partial column maps, reachable through the
   Go API only) the row merge function is NOT associative: recorded, see DESIGN.md C01. *)
Theorem C01_general_rows_not_associative_refuted :
  abs_of (match merge_values w_a w_b with Some ab => merge_values ab w_c | None => None end) <>
  abs_of (match merge_values w_b w_c with Some bc => merge_values w_a bc | None => None end).
Proof. exact merge_rows_general_not_assoc_refuted. Qed.

Example C01_nonvacuous :
  let r1 := {| del := false; doff := 0; cols := [Some {| uoff := 0; cv := VInt 1 |}] |} in
  let r2 := {| del := true; doff := 0; cols := [] |} in
  let a := {| md := 10; tomb := 0; prev := 0; payload := Some r1 |} in
  let b := {| md := 20; tomb := 0; prev := 0; payload := Some r2 |} in
  val_inv 1 a /\ val_inv 1 b /\ mv a b = b /\ mv b a = b.
Proof.
  cbv zeta. split; [|split; [|split; vm_compute; reflexivity]].
  - split; [reflexivity|]. eexists. split; [reflexivity|].
    split; [reflexivity|]. split; [discriminate|]. intros _. split; [reflexivity|].
    constructor; [reflexivity|constructor].
  - split; [reflexivity|]. eexists. split; [reflexivity|].
    split; [reflexivity|]. split; [reflexivity|]. discriminate.
Qed.

Print Assumptions C01_merge_values_newer.
Print Assumptions C01_merge_values_idempotent.
Print Assumptions C01_order_and_repetition.
Print Assumptions C01_grouping.
Print Assumptions C01_merged_is_newest.
Print Assumptions C01_table_order_and_repetition.
Print Assumptions C01_table_lookup_is_join.
Print Assumptions C01_general_rows_not_associative_refuted.
Print Assumptions C01_nonvacuous.
