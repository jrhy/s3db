(* C12 — s3db_changes reports exactly the rows that differ between two versions.
   - the key-wise diff (kv.Diff) reports exactly the keys whose entries differ, with the two
     entries (raw_diff_spec);
   - s3db_changes returns exactly the rows visible in "to" whose entry differs from "from"'s
     (absent there or different in any column or timestamp): soundness and completeness;
     rows deleted in "to" are not returned and never make the query fail (changes_rows_eq);
   - under EVERY plan of transport faults the query fails or returns the complete answer
     computed from the two complete versions — never a partial one.
   Statements with short proofs from DiffProofs / FaultProofs, followed by Print Assumptions. *)
From S3db Require Import Base KeyOrder RowMerge Tree Store KvProto Inst Stmt SqlSession.
From S3db.proofs Require Import TreeProofs DiffProofs ExecProofs OpenProofs FaultProofs.
Import ListNotations.
Open Scope Z_scope.

Section C12.
Variable bf : Z.
Notation cfgr := (cfg_rows bf).

Theorem C12_diff_reports_exactly_the_differing_keys mine from : wf mine -> wf from ->
  Forall (entry_ok cfgr mine from) (raw_diff cfgr mine from) /\
  (forall k, D k -> t_get k mine <> t_get k from ->
     exists e, In e (raw_diff cfgr mine from) /\ order_t k (ekey e) = Eq).
Proof. exact (raw_diff_spec cfgr EqbProofs.cval_row_eqb_eq EqbProofs.cval_row_eqb_refl mine from). Qed.

Theorem C12_changes_are_exactly_the_differing_visible_rows n to_t from_t : wf to_t -> wf from_t ->
  exists l, changes_rows cfgr n to_t from_t = Some l /\
    (forall x, In x l -> exists k r, D k /\ visible_row to_t k = Some r /\ t_get k to_t <> t_get k from_t /\
                                     x = (bridge_result k, row_values n r)) /\
    (forall k r, D k -> visible_row to_t k = Some r -> t_get k to_t <> t_get k from_t ->
       exists k', order_t k k' = Eq /\ In (bridge_result k', row_values n r) l).
Proof. exact (changes_rows_spec bf n to_t from_t). Qed.

Theorem C12_deleted_rows_never_fail_the_query n to_t from_t : changes_rows cfgr n to_t from_t <> None.
Proof. rewrite changes_rows_eq. discriminate. Qed.

Variable oeq : obj row -> obj row -> bool.
Variable plan : list fault.
Hypothesis err_only : forall tr (rq : req row), plan_outcome plan tr rq <> OGone.
Variable S : cval row -> Prop.
Variable g : cval row -> cval row -> cval row.
Hypothesis f_total : forall x y, S x -> S y -> c_merge cfgr x y = Some (g x y).
Hypothesis g_closed : forall x y, S x -> S y -> S (g x y).

Theorem C12_faults_fail_the_query_or_answer_completely now sc tb from to vsf tsf vst tst b :
  sc_tb sc = Some tb ->
  versions_ok_in cfgr S b [PCur; PMerged] (apply_order_multi [] from) vsf tsf ->
  versions_ok_in cfgr S b [PCur; PMerged] (apply_order_multi [] to) vst tst ->
  spec oeq plan b (sql_changes cfgr now sc from to)
       (fun res => exists tf tt, view_fold cfgr tsf = Some tf /\ view_fold cfgr tst = Some tt /\
                                 res = changes_rows cfgr (tb_ncols tb) tt tf).
Proof.
  intros Htb Hf Ht. apply versions_ok_opens in Hf, Ht. apply (spec_of_wp oeq plan err_only). unfold sql_changes. rewrite Htb.
  eapply reads_bind; [eapply (open_hist_wp cfgr oeq S g f_total g_closed); eauto|]. intros hf (Hvf & _).
  eapply reads_bind; [eapply (open_hist_wp cfgr oeq S g f_total g_closed); eauto|]. intros ht (Hvt & _).
  apply reads_ret. exists (h_tree hf), (h_tree ht). repeat split; assumption.
Qed.
End C12.

Print Assumptions C12_diff_reports_exactly_the_differing_keys.
Print Assumptions C12_changes_are_exactly_the_differing_visible_rows.
Print Assumptions C12_deleted_rows_never_fail_the_query.
Print Assumptions C12_faults_fail_the_query_or_answer_completely.
