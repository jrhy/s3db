(* C02 — Conflicts resolve as documented: per-column last-write-wins, sticky deletes.
   The specification (spec/SpecMerge.v, interp_key) is the README rule as a function of the set
   of accepted statements.  The implementation computes "the newest statement wins, as a whole
   row" (C01_merged_is_newest + C06).  Statements proved in a few lines from proofs/, + Print Assumptions. *)
From S3db Require Import Base KeyOrder RowMerge Tree KvProto Inst Stmt.
From S3db.spec Require Import SpecMerge.
From S3db.proofs Require Import RowMergeProofs StmtProofs SpecProofs.
Import ListNotations.
Open Scope Z_scope.

(* C02_partial: on histories with pairwise distinct write times per key in which every
   UPDATE assigns every non-key column and every UPDATE has a live row under it (the latest
   INSERT/DELETE older than it is an INSERT), the documented rule IS "newest statement wins"
   (only the newest statement has to meet the two conditions: SpecProofs.interp_key_newest).
   Missing for the full statement: UPDATEs of some columns (refuted: F-C02-1) and UPDATEs newer
   than a concurrent DELETE (refuted: F-C02-2). *)
Theorem C02_partial n evs m :
  distinct_times evs -> (forall e, In e evs -> full_assign n e) -> upd_on_live evs ->
  In m evs -> (forall e, In e evs -> e_t e <= e_t m) ->
  interp_key n evs = newest_wins n m.
Proof. exact (interp_key_newest_wins n evs m). Qed.

(* the implementation side of that equation: merging two entries returns the newer one *)
Theorem C02_merge_is_newest n (a b : cval row) :
  val_inv n a -> val_inv n b -> md a < md b -> merge_values a b = Some b /\ merge_values b a = Some b.
Proof. exact (merge_values_newer n a b). Qed.

(* a statement with an older write time never overrides the effect of a newer one: on one
   writer the tree is not touched at all ... *)
Theorem C02_older_never_overrides_update bf tb t key assign v :
  t_get key (h_tree (tb_h tb)) = Some v -> tomb v = 0 -> t < md v ->
  h_tree (tb_h (fst (tbl_update (cfg_rows bf) tb t key assign))) = h_tree (tb_h tb).
Proof. exact (wrote_older bf tb t key _ (update_wrote _ tb t key assign) v). Qed.
Theorem C02_older_never_overrides_delete bf tb t key v :
  t_get key (h_tree (tb_h tb)) = Some v -> tomb v = 0 -> t < md v ->
  h_tree (tb_h (fst (tbl_delete (cfg_rows bf) tb t key))) = h_tree (tb_h tb).
Proof. exact (wrote_older bf tb t key _ (delete_wrote _ tb t key) v). Qed.

(* full statement refuted by two machine-checked witnesses (the implementation gives the
   whole-row answers, see KNOWN_FINDINGS F-C02-1, F-C02-2) *)
Theorem C02_per_column_refuted :
  interp_key 2 [ev_ins; ev_upd_a; ev_upd_b] = Some [VInt 2; VInt 3].
Proof. exact partial_updates_differ. Qed.
Theorem C02_sticky_delete_refuted :
  interp_key 2 [ev_ins; ev_del; ev_upd_full] = None /\ newest_wins 2 ev_upd_full = Some [VInt 2; VInt 2].
Proof. exact update_after_delete_differs. Qed.

Example C02_nonvacuous :
  let evs := [ev_ins; ev_upd_full] in
  distinct_times evs /\ (forall e, In e evs -> full_assign 2 e) /\ upd_on_live evs /\
  interp_key 2 evs = Some [VInt 2; VInt 2].
Proof.
  cbv zeta. split; [|split; [|split]].
  - intros a b [<-|[<-|[]]] [<-|[<-|[]]]; cbn; intros; try reflexivity; discriminate.
  - intros e [<-|[<-|[]]] _; [exists [VInt 1; VInt 1] | exists [VInt 2; VInt 2]]; split; reflexivity.
  - intros u [<-|[<-|[]]] K; try discriminate. exists ev_ins. split; [left; reflexivity|].
    split; [reflexivity|]. split; [cbn; lia|].
    intros d [<-|[<-|[]]] Ps Hlt; cbn in *; discriminate.
  - vm_compute. reflexivity.
Qed.

Print Assumptions C02_partial.
Print Assumptions C02_merge_is_newest.
Print Assumptions C02_older_never_overrides_update.
Print Assumptions C02_older_never_overrides_delete.
Print Assumptions C02_per_column_refuted.
Print Assumptions C02_sticky_delete_refuted.
Print Assumptions C02_nonvacuous.
