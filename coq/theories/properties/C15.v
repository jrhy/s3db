(* C15 — write_time makes retries idempotent and cannot reorder history.
   Statements with short proofs from the files imported, followed by Print Assumptions. *)
From S3db Require Import Base RowMerge Tree KvProto Inst Stmt.
From S3db.proofs Require Import RowMergeProofs TreeProofs StmtProofs ConnProofs.
Import ListNotations.
Open Scope Z_scope.

Section C15.
Variable n : nat.
Variable bf : Z.
Notation cfg := (cfg_rows bf).

(* re-executing a statement with the same write time and the same values changes nothing
   that is visible *)
Theorem C15_update_retry_idempotent tmax tb t key vals tb1 :
  TInv n tmax tb -> tmax <= t -> time_zero <= t -> length vals = n -> D key ->
  tbl_update cfg tb t key (map Some vals) = (tb1, OK) ->
  forall tb2 o, tbl_update cfg tb1 t key (map Some vals) = (tb2, o) ->
    o = OK /\ forall k, D k -> abs tb2 k = abs tb1 k.
Proof. exact (update_retry_idempotent n bf tmax tb t key vals tb1). Qed.

Theorem C15_delete_retry_idempotent tmax tb t key tb1 :
  TInv n tmax tb -> tmax <= t -> time_zero <= t -> D key ->
  tbl_delete cfg tb t key = (tb1, OK) ->
  forall tb2 o, tbl_delete cfg tb1 t key = (tb2, o) ->
    o = OK /\ forall k, D k -> abs tb2 k = abs tb1 k.
Proof. exact (delete_retry_idempotent n bf tmax tb t key tb1). Qed.

(* after merging: a retried entry is the same entry, and merging is idempotent *)
Theorem C15_merge_retry_idempotent (a : cval row) : val_inv n a -> merge_values a a = Some a.
Proof. exact (merge_values_same n a). Qed.

(* a statement older than the row's latest change cannot undo it: the tree is not touched *)
Theorem C15_older_update_no_effect tb t key assign v :
  t_get key (h_tree (tb_h tb)) = Some v -> tomb v = 0 -> t < md v ->
  h_tree (tb_h (fst (tbl_update cfg tb t key assign))) = h_tree (tb_h tb).
Proof. exact (wrote_older bf tb t key _ (update_wrote _ tb t key assign) v). Qed.
Theorem C15_older_delete_no_effect tb t key v :
  t_get key (h_tree (tb_h tb)) = Some v -> tomb v = 0 -> t < md v ->
  h_tree (tb_h (fst (tbl_delete cfg tb t key))) = h_tree (tb_h tb).
Proof. exact (wrote_older bf tb t key _ (delete_wrote _ tb t key) v). Qed.
(* ... nor after merging with another writer's version: the newer entry is returned unchanged *)
Theorem C15_older_loses_merge (a b : cval row) :
  val_inv n a -> val_inv n b -> md a < md b -> merge_values a b = Some b /\ merge_values b a = Some b.
Proof. exact (merge_values_newer n a b). Qed.
End C15.

Theorem C15_attrs_readback c d w :
  c_deadline (conn_update c (Some d) (Some w)) = d /\ c_wt (conn_update c (Some d) (Some w)) = w.
Proof. exact (attrs_readback c d w). Qed.
Theorem C15_attrs_independent c d w :
  c_wt (conn_update c (Some d) None) = c_wt c /\ c_deadline (conn_update c None (Some w)) = c_deadline c.
Proof. split; reflexivity. Qed.
Theorem C15_attrs_clear_restores c :
  c_txfixed c = false -> conn_update (conn_update c (Some None) None) None (Some None) = conn0.
Proof. exact (attrs_clear_restores c). Qed.
(* an explicit write time is used by every statement until it is changed, inside and outside
   transactions, and survives them *)
Theorem C15_explicit_time_applies c t now now' :
  c_wt c = Some t -> c_txfixed c = false ->
  stmt_time (conn_begin c now) now' = t /\ conn_end (conn_begin c now) = c.
Proof. intros W F. unfold conn_begin, stmt_time, conn_end. rewrite W. rewrite W, F. auto. Qed.
Theorem C15_auto_time_scoped c now dls :
  c_wt c = None -> c_txfixed c = false ->
  let c1 := conn_begin c now in
  let c2 := fold_left (fun cc d => conn_update cc (Some d) None) dls c1 in
  c_wt c2 = Some now /\ c_wt (conn_end c2) = None /\ c_txfixed (conn_end c2) = false.
Proof. exact (auto_time_scoped c now dls). Qed.

Print Assumptions C15_update_retry_idempotent.
Print Assumptions C15_delete_retry_idempotent.
Print Assumptions C15_merge_retry_idempotent.
Print Assumptions C15_older_update_no_effect.
Print Assumptions C15_older_delete_no_effect.
Print Assumptions C15_older_loses_merge.
Print Assumptions C15_attrs_readback.
Print Assumptions C15_attrs_independent.
Print Assumptions C15_attrs_clear_restores.
Print Assumptions C15_explicit_time_applies.
Print Assumptions C15_auto_time_scoped.
