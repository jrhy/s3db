(* C19 — Independent connections can be used from different threads.
   What a theorem can carry here is the product structure: the process is a product of worlds
   (connections with their attribute blocks, tables and bucket prefix), a step of world i
   touches world i only, and therefore for EVERY interleaving of the worlds' operation streams
   every world ends where it ends when it runs alone — each table's result is what it would be
   had the connections run one after another; one connection's deadline / write_time are not
   changed by another's statements.  That the implementation is such a product, i.e. that its
   process-wide state (table registry, lazily created in-memory bucket, HTTP client, type
   registration) is shared without data races or deadlocks, is runtime behaviour no model can
   exhibit: it is decided by the threaded level, which runs 4 independent worlds concurrently
   under the Go race detector and compares every world with the model run on it alone
   (partial; see DESIGN.md).
   Statements, the last two corollaries of the first, followed by Print Assumptions. *)
From S3db Require Import Base Stmt.
From S3db.proofs Require Import IndependenceProofs.
Import ListNotations.

Theorem C19_every_interleaving_is_per_world (S O : Type) (step : S -> O -> S) sched (w : list S) i s :
  nth_error w i = Some s ->
  nth_error (fold_left (wstep S O step) sched w) i = Some (fold_left step (ops_of O i sched) s).
Proof. exact (interleaving_is_per_world S O step sched w i s). Qed.

Theorem C19_interleavings_agree (S O : Type) (step : S -> O -> S) sched1 sched2 (w : list S) i s :
  nth_error w i = Some s -> ops_of O i sched1 = ops_of O i sched2 ->
  nth_error (fold_left (wstep S O step) sched1 w) i = nth_error (fold_left (wstep S O step) sched2 w) i.
Proof. intros H E. rewrite !(interleaving_is_per_world S O step _ w i s H), E. reflexivity. Qed.

Theorem C19_connection_attributes_are_private sched (w : list conn) i c :
  nth_error w i = Some c ->
  ops_of _ i sched = [] ->
  nth_error (fold_left (wstep conn (option (option time) * option (option time))
                              (fun c a => conn_update c (fst a) (snd a))) sched w) i = Some c.
Proof. intros H E. rewrite (interleaving_is_per_world _ _ _ sched w i c H), E. reflexivity. Qed.

Print Assumptions C19_every_interleaving_is_per_world.
Print Assumptions C19_interleavings_agree.
Print Assumptions C19_connection_attributes_are_private.
