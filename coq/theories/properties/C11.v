(* C11 — A version name denotes an immutable snapshot.
   [Named]: every stored object is in the bucket's naming table (the model of content
   hashing) under its own name, and the table is a function.  For EVERY history of well-named
   programs (open, merge-on-open, commit, refresh, history deletion, ...), each under its own
   fault plan and crash point:
   - the invariant is kept and the table only grows (exec_wn, reach_named);
   - an object read under a name is the object read under that name at any later time, under
     whichever prefix (name_immutable): version objects and nodes never change;
   - re-opening the same version list later returns the same tree (snapshot_immutable), also
     after the versions moved from current/ to merged/;
   - open, commit, merge-on-open and history deletion are well-named programs; a handle knows
     the version objects it merged (this is what s3db_version lists: the names in h_merged);
   - (that a commit that is not needed issues no request is part of C04_commit_mutation_order);
   - a vacuum of a table that holds no entry changes nothing: the table keeps its handle — the
     version s3db_version() reports — and the whole statement sends no PUT.
   Statements with short proofs from the files imported, followed by Print Assumptions. *)
From S3db Require Import Base RowMerge Store KvProto Inst Stmt.
From S3db.proofs Require Import ProtoProofs ExecProofs OpenProofs NamedProofs EqbProofs VacuumProofs.
Import ListNotations.
Open Scope Z_scope.

Section C11.
Context {V : Type}.
Variable c : cfg (V := V).
Variable oeq : obj V -> obj V -> bool.
Hypothesis oeq_eq : forall a b, oeq a b = true -> a = b.

Theorem C11_programs_keep_objects_named plan crash {A} muts b (p : prog V A) tr b' r tr' muts' :
  @exec V oeq plan crash A muts b p tr b' r tr' muts' ->
  forall Q K, wn Q K p -> Named b -> (forall x, In x K -> In x (b_tbl b)) ->
  Named b' /\ (forall x, In x (b_tbl b) -> In x (b_tbl b')) /\
  (forall a, r = Done a -> exists K', (forall x, In x K' -> In x (b_tbl b')) /\ Q K' a).
Proof. exact (exec_wn oeq oeq_eq plan crash muts b p tr b' r tr' muts'). Qed.

Theorem C11_histories_keep_objects_named b b' : reach oeq b b' -> Named b ->
  Named b' /\ forall x, In x (b_tbl b) -> In x (b_tbl b').
Proof. exact (reach_named oeq oeq_eq b b'). Qed.

Theorem C11_name_denotes_one_content_for_ever b b' p p' n o o' :
  Named b -> reach oeq b b' ->
  o_get n (sel p b) = Some o -> o_get n (sel p' b') = Some o' -> o = o'.
Proof. exact (name_immutable oeq oeq_eq b b' p p' n o o'). Qed.

Theorem C11_open_is_well_named ro only when order corder K :
  wn (fun K' h => incl K K' /\ mk K' (h_merged h)) K (open c ro only when order corder).
Proof. exact (open_wn c ro only when order corder K). Qed.

Theorem C11_commit_is_well_named order (h : handle (V := V)) K : mk K (h_merged h) ->
  wn (fun K' r => incl K K' /\ mk K' (h_merged (fst r))) K (commit order h).
Proof. exact (commit_wn order h K). Qed.

Theorem C11_history_deletion_never_puts (h : handle (V := V)) before : no_put (delete_historic c h before).
Proof. exact (delete_historic_np c h before). Qed.

Variable S : cval V -> Prop.
Variable g : cval V -> cval V -> cval V.
Hypothesis f_total : forall x y, S x -> S y -> c_merge c x y = Some (g x y).
Hypothesis g_closed : forall x y, S x -> S y -> S (g x y).

Theorem C11_reopening_versions_returns_same_rows vsn order when when' corder corder' (b b' : bucket V) vs ts vs' ts'
        m1 tr1 b1 r1 tr1' m1' m2 tr2 b2 r2 tr2' m2' :
  Named b -> reach oeq b b' ->
  versions_ok_in c S b [PCur; PMerged] (apply_order_multi order vsn) vs ts ->
  versions_ok_in c S b' [PCur; PMerged] (apply_order_multi order vsn) vs' ts' ->
  @exec V oeq [] None _ m1 b (open c true (Some vsn) when order corder) tr1 b1 r1 tr1' m1' ->
  @exec V oeq [] None _ m2 b' (open c true (Some vsn) when' order corder') tr2 b2 r2 tr2' m2' ->
  exists h h', r1 = Done h /\ r2 = Done h' /\ h_tree h = h_tree h'.
Proof.
  exact (snapshot_immutable c oeq oeq_eq S g f_total g_closed).
Qed.
End C11.

Theorem C11_vacuum_of_an_empty_table_keeps_its_version (cfg : KvProto.cfg (V := row)) (corder : list name) (tb tb' : table) before e :
  h_tree (tb_h tb) = [] -> commit_needed (tb_h tb) = false ->
  returns (tbl_vacuum cfg corder tb before) (tb', e) -> tb_h tb' = tb_h tb.
Proof.
  intros E N R. rewrite (vacuum_empty_table cfg corder tb before E N) in R.
  apply returns_bind in R. destruct R as (res & _ & R). apply returns_inv in R. injection R as -> _. reflexivity.
Qed.

Theorem C11_vacuum_of_an_empty_table_never_puts (cfg : KvProto.cfg (V := row)) (corder : list name) (tb : table) before :
  h_tree (tb_h tb) = [] -> commit_needed (tb_h tb) = false ->
  no_put (tbl_vacuum cfg corder tb before).
Proof.
  intros E N. rewrite (vacuum_empty_table cfg corder tb before E N).
  apply no_put_bind; [apply no_put_catch, delete_historic_np|]. intros res. constructor.
Qed.

(* the object equality of the s3db row configuration (what the extracted model runs) decides
   equality, so the theorems above apply to it; the empty bucket is named *)
Theorem C11_rows_object_equality_sound a b : obj_eqb_rows a b = true -> a = b.
Proof. exact (obj_eqb_rows_eq a b). Qed.
Theorem C11_plain_object_equality_sound a b : obj_eqb_plain a b = true -> a = b.
Proof. exact (obj_eqb_plain_eq a b). Qed.
Theorem C11_empty_bucket_named : Named (@empty_bucket row).
Proof. exact named_empty. Qed.

Print Assumptions C11_programs_keep_objects_named.
Print Assumptions C11_histories_keep_objects_named.
Print Assumptions C11_name_denotes_one_content_for_ever.
Print Assumptions C11_open_is_well_named.
Print Assumptions C11_commit_is_well_named.
Print Assumptions C11_history_deletion_never_puts.
Print Assumptions C11_reopening_versions_returns_same_rows.
Print Assumptions C11_rows_object_equality_sound.
Print Assumptions C11_plain_object_equality_sound.
Print Assumptions C11_empty_bucket_named.
Print Assumptions C11_vacuum_of_an_empty_table_keeps_its_version.
Print Assumptions C11_vacuum_of_an_empty_table_never_puts.
