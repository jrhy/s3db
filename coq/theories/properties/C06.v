(* C06 — A single-writer table behaves like the same table in plain SQLite.
   The reference is a plain map from keys to rows ([abs] reads it off the table): INSERT fails
   with a primary-key error exactly when the key has a row, succeeds otherwise and adds it;
   UPDATE replaces the row when it exists; DELETE removes it; nothing else changes.
   Hypotheses: one writer with non-decreasing write times (tmax <= t), keys in the safe domain
   (C07), the table invariant TInv (established by these very theorems from the empty table).
   SELECT (ScanProofs): for every well-formed tree, every list of key constraints with safe
   operands and both directions, the rows SQLite keeps after re-checking the constraints on what
   the cursor hands back are exactly the live rows that satisfy all constraints — the entries of
   that same map — in ascending (descending) key order: the scan window built by Filter never
   hides, repeats or reorders a qualifying row.
   TREES OF SEVERAL LEVELS (Mast.v, MastProofs, MastLevelProofs): the stored layout — which entry in
   which node on which level — refines that same sorted list: for every sorted tree, every key and
   every placement, Insert / Delete of the node-level tree flatten to the list's insert / delete
   (and count the size), a lookup answers only with the list's entry, and — when entries sit on the
   level their key's layer names and equal keys have equal layers — finds every entry of the list.
   Cursor.Backward as written in mast v1.2.33 is refuted on the model (F-C06-2).
   Statements with short proofs from the files named, followed by Print Assumptions. *)
From S3db Require Import Base KeyOrder RowMerge Tree KvProto Inst Stmt Mast.
From S3db.proofs Require Import TreeProofs StmtProofs ScanProofs MastProofs MastLevelProofs MastInvProofs MastDelProofs MastCursorProofs MastNeProofs MastCeilProofs MastBackProofs MastScanTie MastExamples.
Import ListNotations.
Open Scope Z_scope.

Section C06.
Variable n : nat.
Variable bf : Z.
Notation cfg := (cfg_rows bf).

Theorem C06_insert tmax tb t key vals :
  TInv n tmax tb -> tmax <= t -> time_zero <= t -> length vals = n -> D key ->
  match abs tb key with
  | Some _ => tbl_insert cfg tb t key vals = (tb, ErrPK)
  | None => exists tb', tbl_insert cfg tb t key vals = (tb', OK) /\ TInv n t tb' /\
              forall k, D k -> abs tb' k = match order_t k key with Eq => Some vals | _ => abs tb k end
  end.
Proof. exact (insert_refines n bf tmax tb t key vals). Qed.

Theorem C06_null_key_rejected tb t vals : tbl_insert cfg tb t VNull vals = (tb, ErrNotNull).
Proof. reflexivity. Qed.

Theorem C06_update tmax tb t key vals :
  TInv n tmax tb -> tmax <= t -> time_zero <= t -> length vals = n -> D key ->
  match abs tb key with
  | None => tbl_update cfg tb t key (map Some vals) = (tb, OK)
  | Some _ => exists tb', tbl_update cfg tb t key (map Some vals) = (tb', OK) /\ TInv n t tb' /\
              forall k, D k -> abs tb' k = match order_t k key with Eq => Some vals | _ => abs tb k end
  end.
Proof. exact (update_refines n bf tmax tb t key vals). Qed.

Theorem C06_delete tmax tb t key :
  TInv n tmax tb -> tmax <= t -> time_zero <= t -> D key ->
  exists tb', tbl_delete cfg tb t key = (tb', OK) /\ TInv n t tb' /\
    forall k, D k -> abs tb' k = match order_t k key with Eq => None | _ => abs tb k end.
Proof. exact (delete_refines n bf tmax tb t key). Qed.
End C06.

(* SELECT: the scan window never hides, repeats or reorders a qualifying row *)
Theorem C06_select_is_filter_and_sort (tb : table) (desc : bool) (cs : list (cop * sval)) :
  wf (h_tree (tb_h tb)) -> Forall (fun c => D (snd c)) cs ->
  select_model tb desc cs =
    Some (map (fun kr => (bridge_result (fst kr), row_values (tb_ncols tb) (snd kr)))
              (let qualifying := filter (goodb cs) (live (h_tree (tb_h tb))) in
               if desc then rev qualifying else qualifying)).
Proof. exact (select_is_filter_and_sort tb desc cs). Qed.

(* a comparison of the key with NULL is never true: such a SELECT returns no row, and answers *)
Theorem C06_comparison_with_null_selects_nothing (tb : table) (desc : bool) (cs : list (cop * sval)) o :
  In (o, VNull) cs -> select_model tb desc cs = Some [].
Proof.
  intros Hin. unfold select_model.
  assert (E : existsb (fun c : cop * sval => is_null (snd c)) cs = true).
  { apply existsb_exists. exists (o, VNull). split; [exact Hin|reflexivity]. }
  rewrite E. reflexivity.
Qed.

Theorem C06_qualifying_rows (t : tree (cval row)) (cs : list (cop * sval)) k r :
  In (k, r) (filter (goodb cs) (live t)) <->
  (exists v, In (k, v) t /\ row_live v = Some r) /\ forall c, In c cs -> sat k c = true.
Proof. exact (qualifying_rows t cs k r). Qed.

Theorem C06_selected_row_is_map_entry (tb : table) cs k r :
  wf (h_tree (tb_h tb)) ->
  In (k, r) (filter (goodb cs) (live (h_tree (tb_h tb)))) ->
  abs tb k = Some (vals_of r) /\ forall c, In c cs -> sat k c = true.
Proof.
  intros Hwf Hin. apply qualifying_rows in Hin. destruct Hin as [(v & Hv & Hl) Hs]. split; [|exact Hs].
  unfold abs. rewrite (get_in k v _ Hwf Hv), live_vals_some, Hl. reflexivity.
Qed.

Theorem C06_map_entry_is_selected (tb : table) cs k vals :
  wf (h_tree (tb_h tb)) -> D k -> Forall (fun c => D (snd c)) cs ->
  abs tb k = Some vals -> (forall c, In c cs -> sat k c = true) ->
  exists k' r, In (k', r) (filter (goodb cs) (live (h_tree (tb_h tb)))) /\ order_t k k' = Eq /\ vals_of r = vals.
Proof. exact (map_entry_is_selected tb cs k vals). Qed.

(* both directions and several bounds on one side, on a concrete table *)
Example C06_select_example :
  let t : tree (cval row) := [(VInt 1, mk_set 5 empty_row); (VInt 2, mk_set 5 empty_row); (VInt 3, mk_set 5 empty_row)] in
  let h := {| h_ro := false; h_tree := t; h_dirty := false; h_link := None; h_created := None;
              h_source := None; h_msources := []; h_mode := 1; h_bf := 4096; h_merged := [];
              h_tombstoned := false; h_conf := 0 |} in
  let tb := {| tb_h := h; tb_tx := None; tb_ncols := 0; tb_ro := false |} in
  wf t /\
  select_model tb false [(OpLT, VInt 3); (OpLE, VInt 3); (OpGE, VInt 2)] = Some [(VInt 2, [])] /\
  select_model tb true [(OpGT, VInt 1)] = Some [(VInt 3, []); (VInt 2, [])].
Proof.
  cbv zeta. split; [|split; vm_compute; reflexivity].
  repeat (apply wf_cons; [reflexivity| |repeat constructor]). apply wf_nil.
Qed.

(* the empty table satisfies the invariant, so the theorems chain from CREATE onwards *)
Example C06_nonvacuous :
  let h := {| h_ro := false; h_tree := []; h_dirty := false; h_link := None; h_created := None;
              h_source := None; h_msources := []; h_mode := 1; h_bf := 4096; h_merged := [];
              h_tombstoned := false; h_conf := 0 |} in
  let tb := {| tb_h := h; tb_tx := None; tb_ncols := 1; tb_ro := false |} in
  TInv 1 0 tb /\
  fst (fst (tbl_insert (cfg_rows 4096) tb 10 (VInt 1) [VInt 7]), tt) = fst (tbl_insert (cfg_rows 4096) tb 10 (VInt 1) [VInt 7]) /\
  snd (tbl_insert (cfg_rows 4096) tb 10 (VInt 1) [VInt 7]) = OK /\
  snd (tbl_insert (cfg_rows 4096) (fst (tbl_insert (cfg_rows 4096) tb 10 (VInt 1) [VInt 7])) 20 (VInt 1) [VInt 8]) = ErrPK.
Proof.
  cbv zeta. split.
  - split; [|split; reflexivity]. split; constructor.
  - split; [reflexivity|]. split; vm_compute; reflexivity.
Qed.

(* trees of several levels *)
Section C06_levels.
Context {V : Type}.

Theorem C06_multilevel_insert_is_map_insert (m m' : mast V) k v : D k -> wf (mast_flat m) ->
  mast_insert m k v = Some m' ->
  mast_flat m' = t_insert k v (mast_flat m) /\ wf (mast_flat m') /\
  m_size m' = (if t_get k (mast_flat m) then m_size m else m_size m + 1).
Proof. exact (mast_insert_refines m m' k v). Qed.

Theorem C06_multilevel_delete_is_map_delete (m m' : mast V) k : D k -> wf (mast_flat m) ->
  mast_delete m k = Some m' ->
  mast_flat m' = t_delete k (mast_flat m) /\ wf (mast_flat m') /\
  t_get k (mast_flat m) <> None /\ m_size m' = m_size m - 1.
Proof. exact (mast_delete_refines m m' k). Qed.

Theorem C06_multilevel_lookup_answers_with_the_stored_row (m : mast V) k v : D k -> wf (mast_flat m) ->
  mast_get m k = Some v -> t_get k (mast_flat m) = Some v.
Proof. exact (mast_get_sound m k v). Qed.

Theorem C06_multilevel_lookup_finds_every_stored_row (lay : sval -> nat) (n : mt V) h k v :
  D k -> wf (flat n) -> lvr lay h n -> LC lay k (flat n) ->
  t_get k (flat n) = Some v -> get (h - Nat.min (lay k) h) k n = Some v.
Proof. exact (get_complete_root lay n h k v). Qed.
End C06_levels.

(* every tree reached from the empty tree by Inserts over keys whose equal members have equal layers
   (P_layers: false across INTEGER / REAL twins, finding F-C07-2): no Insert panics, the level
   discipline holds, the contents are the sorted list's, and every lookup is the list's lookup *)
Theorem C06_multilevel_inserts_never_panic_and_lookups_are_map_lookups
  {V : Type} (bf : Z) (P : sval -> Prop)
  (P_layers : forall a b, P a -> P b -> order_t a b = Eq -> klayer bf a = klayer bf b)
  (P_safe : forall a, P a -> D a) (ops : list (sval * V)) (m : mast V) :
  MInv bf P m -> Forall (fun kv => P (fst kv)) ops ->
  exists m', run_inserts m ops = Some m' /\ MInv bf P m' /\
    mast_flat m' = fold_left (fun t kv => t_insert (fst kv) (snd kv) t) ops (mast_flat m) /\
    forall k, P k -> mast_get m' k = t_get k (mast_flat m').
Proof.
  intros Hm Hops.
  (* a sequence of Inserts is a history without Deletes *)
  assert (R : forall m, run_mops m (map (fun kv => MIns (fst kv) (snd kv)) ops) = run_inserts m ops).
  { clear. induction ops as [|[k v] ops IH]; intros m; cbn [map run_mops run_inserts fst snd]; [reflexivity|].
    destruct (mast_insert m k v); [apply IH|reflexivity]. }
  assert (F : forall t : tree V, fold_left list_step (map (fun kv => MIns (fst kv) (snd kv)) ops) t =
                                 fold_left (fun t kv => t_insert (fst kv) (snd kv) t) ops t).
  { clear. induction ops as [|[k v] ops IH]; intros t; cbn [map fold_left]; [reflexivity|apply IH]. }
  rewrite <- R, <- F. apply (histories_never_panic_and_refine bf P P_layers P_safe); [exact Hm|].
  apply Forall_map. exact Hops.
Qed.
(* ... and every history of Inserts AND Deletes (Delete, node merging and the shrink loop keep the
   level discipline too; a Delete of an absent key is refused and changes nothing) *)
Theorem C06_multilevel_histories_never_panic_and_lookups_are_map_lookups
  {V : Type} (bf : Z) (P : sval -> Prop)
  (P_layers : forall a b, P a -> P b -> order_t a b = Eq -> klayer bf a = klayer bf b)
  (P_safe : forall a, P a -> D a) (ops : list (mop (V := V))) (m : mast V) :
  MInv bf P m -> Forall (fun o => P (mop_key o)) ops ->
  exists m', run_mops m ops = Some m' /\ MInv bf P m' /\
    mast_flat m' = fold_left list_step ops (mast_flat m) /\
    forall k, P k -> mast_get m' k = t_get k (mast_flat m').
Proof. exact (histories_never_panic_and_refine bf P P_layers P_safe ops m). Qed.

(* the ascending scan (Cursor, Min, then Get / Forward): from any valid position Get answers with the
   head of what remains in order and Forward moves to its tail ... *)
Theorem C06_multilevel_forward_step {V : Type} fuel (p : list (mt V * nat)) kv :
  top_ok p -> path_ok fuel p -> c_get p = Some kv ->
  rest p = kv :: rest (c_forward fuel p) /\ top_ok (c_forward fuel p).
Proof. exact (forward_is_tail fuel p kv). Qed.

(* ... so that on every tree reached from the empty tree by Inserts and Deletes the scan returns
   exactly the in-order contents of the sorted list, whatever the number of levels *)
Theorem C06_multilevel_ascending_scans_are_the_map_in_key_order
  {V : Type} (bf : Z) (P : sval -> Prop)
  (P_layers : forall a b, P a -> P b -> order_t a b = Eq -> klayer bf a = klayer bf b)
  (P_safe : forall a, P a -> D a) (ops : list (mop (V := V))) (m : mast V) :
  MInv2 bf P m -> Forall (fun o => P (mop_key o)) ops ->
  exists m', run_mops m ops = Some m' /\ MInv2 bf P m' /\
    mast_flat m' = fold_left list_step ops (mast_flat m) /\
    forall steps, (length (mast_flat m') < steps)%nat ->
      c_walk_fwd steps (S (m_height m')) (c_min (S (m_height m')) (mast_cursor m')) = mast_flat m'.
Proof. exact (scans_of_reachable_trees bf P P_layers P_safe ops m). Qed.
Theorem C06_the_empty_tree_meets_the_scan_invariant {V : Type} bf P : MInv2 (V := V) bf P (mast_empty bf).
Proof. exact (conj (empty_inv bf P) I). Qed.

(* a bounded ascending scan (Cursor, Ceil(k), then Get / Forward) returns the entries from the first
   key that is not below k on — the suffix the list-level scan theorem (C06_select_is_filter_and_sort)
   starts from *)
Theorem C06_multilevel_bounded_scan_starts_at_the_ceiling {V : Type} fuel steps (m : mast V) k :
  D k -> wf (mast_flat m) -> ne (node_of (m_root m)) -> (depth (node_of (m_root m)) < fuel)%nat ->
  m_root m <> LNil -> (length (mast_flat m) < steps)%nat ->
  c_walk_fwd steps fuel (c_ceil fuel k (mast_cursor m)) = t_ceil k (mast_flat m).
Proof. exact (bounded_scan_is_ceil fuel steps m k). Qed.

(* descending scans: on a table whose tree is a single node (at most entries_per_node rows) Max and
   Backward return the entries in reverse order; on trees of several levels Backward as written
   loses rows (C06_descending_walk_refuted, finding F-C06-2) *)
Theorem C06_single_node_descending_walk {V : Type} (m : mast V) n fuel steps :
  m_root m = LNode n -> leaf n -> (0 < nkeys n)%nat -> (0 < fuel)%nat -> (nkeys n <= steps)%nat ->
  c_walk_bwd steps fuel (c_max fuel (mast_cursor m)) = (rev (mast_flat m), WOk).
Proof. exact (single_node_descending_walk m n fuel steps). Qed.

(* the tie between the two levels: what the node-level cursor hands to VirtualTable.Next for an
   ascending scan — Cursor + Min, or Cursor + Ceil(lower bound), then Get / Forward — is exactly the
   sequence the list-level scan model (tbl_scan, C06_select_is_filter_and_sort) starts from, on every
   tree that meets the invariant *)
Theorem C06_ascending_select_over_a_multilevel_tree (bf : Z) (P : sval -> Prop)
  (m : mast (cval row)) (w : window) steps :
  MInv2 bf P m -> (forall k, w_min w = Some k -> D k) -> (length (mast_flat m) < steps)%nat ->
  tbl_scan (mast_flat m) false w = scan_fwd (cursor_sequence m w steps) w (w_gt w).
Proof. exact (ascending_scan_over_a_multilevel_tree bf P m w steps). Qed.

Theorem C06_the_empty_tree_meets_the_invariant {V : Type} bf P : MInv (V := V) bf P (mast_empty bf).
Proof. exact (empty_inv bf P). Qed.

Theorem C06_three_level_tree_example :
  exists m, build 2 [1; 2; 3; 4; 5; 6; 7; 8] = Some m /\
    m_height m = 2%nat /\ m_size m = 8 /\
    mast_flat m = map (fun k => (VInt k, k)) [1; 2; 3; 4; 5; 6; 7; 8] /\
    wf (mast_flat m) /\
    lvr (klayer 2) (m_height m) (node_of (m_root m)) /\
    walk_fwd m = mast_flat m /\
    mast_get m (VInt 5) = Some 5 /\ mast_get m (VInt 9) = None.
Proof. exact three_levels. Qed.

Theorem C06_descending_walk_refuted :
  exists m : mast Z, wf (mast_flat m) /\ snd (walk_back m) = WOk /\ fst (walk_back m) <> rev (mast_flat m).
Proof. exact backward_scan_refuted. Qed.

Print Assumptions C06_insert.
Print Assumptions C06_null_key_rejected.
Print Assumptions C06_update.
Print Assumptions C06_delete.
Print Assumptions C06_nonvacuous.
Print Assumptions C06_select_is_filter_and_sort.
Print Assumptions C06_qualifying_rows.
Print Assumptions C06_selected_row_is_map_entry.
Print Assumptions C06_map_entry_is_selected.
Print Assumptions C06_select_example.
Print Assumptions C06_comparison_with_null_selects_nothing.
Print Assumptions C06_multilevel_insert_is_map_insert.
Print Assumptions C06_multilevel_delete_is_map_delete.
Print Assumptions C06_multilevel_lookup_answers_with_the_stored_row.
Print Assumptions C06_multilevel_lookup_finds_every_stored_row.
Print Assumptions C06_three_level_tree_example.
Print Assumptions C06_descending_walk_refuted.
Print Assumptions C06_multilevel_inserts_never_panic_and_lookups_are_map_lookups.
Print Assumptions C06_the_empty_tree_meets_the_invariant.
Print Assumptions C06_multilevel_histories_never_panic_and_lookups_are_map_lookups.
Print Assumptions C06_multilevel_forward_step.
Print Assumptions C06_multilevel_ascending_scans_are_the_map_in_key_order.
Print Assumptions C06_the_empty_tree_meets_the_scan_invariant.
Print Assumptions C06_multilevel_bounded_scan_starts_at_the_ceiling.
Print Assumptions C06_single_node_descending_walk.
Print Assumptions C06_ascending_select_over_a_multilevel_tree.
