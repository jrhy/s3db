(* C18 — Encrypted nodes are confidential, authenticated and still deduplicate.
   The theorems are about the framing kv/crypto.go adds around the primitives, which are
   parameters (blake2b-192, NaCl secretbox Seal/Open, legacy open) with the two assumptions a
   correct library gives: the digest has 24 bytes, Open inverts Seal.  For every key and every
   message of every length:
   - decrypt (encrypt m) = m;
   - the ciphertext is a function of key and message only (equal nodes give equal objects);
   - inputs shorter than a nonce are errors; whatever is accepted was accepted by one of the
     two open primitives; what both reject is an error (tamper / wrong key detection is the
     primitives' authentication, assumed, and exercised bit-flip by bit-flip by the L0 suite);
   - a legacy box is read back IF secretbox.Open does not accept it first; when it does, its
     answer is returned (finding F-C18-1: this happens for every legacy box over 32 bytes).
   Confidentiality of the cipher itself is not a theorem here (it is the primitive's).
   Statements with short proofs from CryptoProofs, followed by Print Assumptions. *)
From S3db Require Import Base Crypto.
From S3db.proofs Require Import CryptoProofs.
Import ListNotations.

Section C18.
Variable nonce_of : bytes -> bytes.
Variable seal : bytes -> bytes -> bytes -> bytes.
Variable open_new : bytes -> bytes -> bytes -> option bytes.
Variable open_old : bytes -> bytes -> bytes -> option bytes.
Hypothesis H_nonce : forall x, length (nonce_of x) = nonce_len.
Hypothesis H_box : forall k n m, open_new k n (seal k n m) = Some m.

Theorem C18_decrypt_inverts_encrypt key msg :
  decrypt open_new open_old key (encrypt nonce_of seal key msg) = Some msg.
Proof. exact (decrypt_encrypt nonce_of seal open_new open_old H_nonce H_box key msg). Qed.

Theorem C18_equal_plaintext_equal_ciphertext key m1 m2 :
  m1 = m2 -> encrypt nonce_of seal key m1 = encrypt nonce_of seal key m2.
Proof. exact (encrypt_deterministic nonce_of seal key m1 m2). Qed.

Theorem C18_short_input_is_an_error key c : (length c < nonce_len)%nat -> decrypt open_new open_old key c = None.
Proof. intros H. unfold decrypt. destruct (Nat.ltb_spec (length c) nonce_len); [reflexivity|lia]. Qed.

Theorem C18_accepted_means_authenticated key c m :
  decrypt open_new open_old key c = Some m ->
  (nonce_len <= length c)%nat /\
  (open_new key (firstn nonce_len c) (skipn nonce_len c) = Some m \/
   (open_new key (firstn nonce_len c) (skipn nonce_len c) = None /\
    open_old key (firstn nonce_len c) (skipn nonce_len c) = Some m)).
Proof.
  unfold decrypt. destruct (Nat.ltb_spec (length c) nonce_len); [discriminate|]. intros H0. split; [lia|].
  destruct (open_new key _ _) as [m'|]; [left; exact H0|right; split; [reflexivity|exact H0]].
Qed.

Theorem C18_rejected_by_both_is_an_error key c :
  open_new key (firstn nonce_len c) (skipn nonce_len c) = None ->
  open_old key (firstn nonce_len c) (skipn nonce_len c) = None -> decrypt open_new open_old key c = None.
Proof.
  intros H1 H2. unfold decrypt. destruct (Nat.ltb (length c) nonce_len); [reflexivity|]. rewrite H1. exact H2.
Qed.

Theorem C18_legacy_box_readable_if_not_claimed key n box m : length n = nonce_len ->
  open_old key n box = Some m ->
  open_new key n box = None \/ open_new key n box = Some m ->
  decrypt open_new open_old key (n ++ box) = Some m.
Proof. exact (legacy_box_readable open_new open_old key n box m). Qed.

Theorem C18_legacy_box_misread_when_claimed key n box m m' : length n = nonce_len ->
  open_old key n box = Some m -> open_new key n box = Some m' ->
  decrypt open_new open_old key (n ++ box) = Some m'.
Proof. exact (legacy_box_misread_when_new_open_accepts open_new open_old key n box m m'). Qed.
End C18.
(* key derivation (deriveKey): the node key is argon2id(base64(context ++ passphrase), blake2b-128 of
   the same bytes); with collision-free primitives two passphrases give the same key only if they
   are the same bytes — no trimming, folding or truncation of the passphrase *)
Theorem C18_every_byte_of_the_passphrase_counts
        (b64 salt_of : bytes -> bytes) (argon : bytes -> bytes -> bytes)
        (b64_inj : forall x y, b64 x = b64 y -> x = y)
        (argon_inj : forall p s p' s', argon p s = argon p' s' -> p = p') master master' context :
  derive_key b64 salt_of argon master context = derive_key b64 salt_of argon master' context -> master = master'.
Proof. unfold derive_key. intros H. apply argon_inj, b64_inj in H. exact (app_inv_head _ _ _ H). Qed.

Print Assumptions C18_decrypt_inverts_encrypt.
Print Assumptions C18_equal_plaintext_equal_ciphertext.
Print Assumptions C18_short_input_is_an_error.
Print Assumptions C18_accepted_means_authenticated.
Print Assumptions C18_rejected_by_both_is_an_error.
Print Assumptions C18_legacy_box_readable_if_not_claimed.
Print Assumptions C18_legacy_box_misread_when_claimed.
Print Assumptions C18_every_byte_of_the_passphrase_counts.
