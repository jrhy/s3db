(* C05 — Transactions are atomic and isolated: rollback restores, nothing leaks early.
   Statements proved in a line from proofs/, followed by Print Assumptions. *)
From S3db Require Import Base KeyOrder Inst Stmt.
From S3db.proofs Require Import TreeProofs StmtProofs ConnProofs.
Import ListNotations.
Open Scope Z_scope.

Section C05.
Variable bf : Z.
Notation cfg := (cfg_rows bf).

(* ROLLBACK swaps the BEGIN snapshot back: whatever the statements of the transaction did to
   the table (they never touch the snapshot), the handle after ROLLBACK is the one at BEGIN *)
Theorem C05_rollback_restores tb tb0 :
  tbl_begin tb0 = Some tb -> forall tb', tb_tx tb' = tb_tx tb -> tb_h (tbl_rollback tb') = tb_h tb0.
Proof. exact (rollback_restores tb tb0). Qed.

Theorem C05_insert_keeps_snapshot tb t key vals : tb_tx (fst (tbl_insert cfg tb t key vals)) = tb_tx tb.
Proof. exact (wrote_tx cfg tb t key _ (insert_wrote cfg tb t key vals)). Qed.
Theorem C05_update_keeps_snapshot tb t key a : tb_tx (fst (tbl_update cfg tb t key a)) = tb_tx tb.
Proof. exact (wrote_tx cfg tb t key _ (update_wrote cfg tb t key a)). Qed.
Theorem C05_delete_keeps_snapshot tb t key : tb_tx (fst (tbl_delete cfg tb t key)) = tb_tx tb.
Proof. exact (wrote_tx cfg tb t key _ (delete_wrote cfg tb t key)). Qed.

(* a connection reads its own writes inside a transaction: all statements of a transaction
   carry one write time (tmax <= t holds with equality), and the single-writer refinement holds
   for equal times too: the second write to a row wins (finding D19, repaired) *)
Theorem C05_reads_own_update n tmax tb t key vals :
  TInv n tmax tb -> tmax <= t -> time_zero <= t -> length vals = n -> D key ->
  match abs tb key with
  | None => tbl_update cfg tb t key (map Some vals) = (tb, OK)
  | Some _ => exists tb', tbl_update cfg tb t key (map Some vals) = (tb', OK) /\ TInv n t tb' /\
              forall k, D k -> abs tb' k = match order_t k key with Eq => Some vals | _ => abs tb k end
  end.
Proof. exact (update_refines n bf tmax tb t key vals). Qed.
End C05.

(* one write time per transaction unless the connection sets it explicitly *)
Theorem C05_one_write_time c now n1 n2 :
  let c1 := conn_begin c now in stmt_time c1 n1 = stmt_time c1 n2.
Proof. exact (one_write_time c now n1 n2). Qed.

Theorem C05_auto_time_ends_with_transaction c now dls :
  c_wt c = None -> c_txfixed c = false ->
  let c1 := conn_begin c now in
  let c2 := fold_left (fun cc d => conn_update cc (Some d) None) dls c1 in
  c_wt c2 = Some now /\ c_wt (conn_end c2) = None /\ c_txfixed (conn_end c2) = false.
Proof. exact (auto_time_scoped c now dls). Qed.

Print Assumptions C05_rollback_restores.
Print Assumptions C05_insert_keeps_snapshot.
Print Assumptions C05_update_keeps_snapshot.
Print Assumptions C05_delete_keeps_snapshot.
Print Assumptions C05_reads_own_update.
Print Assumptions C05_one_write_time.
Print Assumptions C05_auto_time_ends_with_transaction.
