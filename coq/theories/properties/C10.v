(* C10 — Vacuum reclaims exactly what the cutoff allows.
   For EVERY tree, cutoff and writable handle:
   - a row deleted strictly before the cutoff no longer occupies the tree; a row deleted at or
     after the cutoff keeps its entry, delete marker included; a live row keeps its entry;
   - so the kept delete marker still wins over any older write merged later (merge of a newer
     entry with an older one is the newer one);
   - repeating the same vacuum changes nothing;
   - the versions selected for deletion are exactly the ancestors all of whose successors were
     created at or before the cutoff ("too new" = created strictly after the cutoff);
   - history deletion removes the node objects of the versions it reclaims BEFORE the records of
     those versions, for every fault plan and crash point: when a version record is asked to be
     deleted every node deletion of the run has been issued and has succeeded, and a node deletion
     that fails ends the run with every version record still there — so a retry finds the same
     versions again and nothing is left in the bucket that no record accounts for.
   Statements with short proofs from VacuumProofs / DelOrderProofs, followed by Print Assumptions. *)
From S3db Require Import Base KeyOrder RowMerge Tree Store KvProto Inst Stmt.
From S3db.proofs Require Import TreeProofs RowMergeProofs VacuumProofs DelOrderProofs.
Import ListNotations.
Open Scope Z_scope.

Section C10.
Variable bf : Z.

Theorem C10_delete_marker_kept_iff_not_before_cutoff (h : rhandle) before k v r :
  h_ro h = false -> wf (h_tree h) -> time_zero_nanos < before -> In (k, v) (h_tree h) ->
  tomb v = 0 -> payload v = Some r -> del r = true ->
  (before <= md v + doff r -> In (k, v) (vacuumed bf h before)) /\
  (md v + doff r < before -> forall v', ~ In (k, v') (vacuumed bf h before)).
Proof. exact (delete_marker_kept_iff bf h before k v r). Qed.

Theorem C10_live_rows_keep_their_entry (h : rhandle) before k v r :
  h_ro h = false -> wf (h_tree h) -> time_zero_nanos < before -> In (k, v) (h_tree h) ->
  tomb v = 0 -> payload v = Some r -> del r = false -> In (k, v) (vacuumed bf h before).
Proof.
  intros Hro Hwf Hb Hin Tv Pv Dr. apply vacuumed_In; auto. split; [exact Hin|].
  rewrite (kept_row before v r Tv Pv), Dr. reflexivity.
Qed.

Theorem C10_vacuumed_tree_is_a_filter (h : rhandle) before :
  h_ro h = false -> wf (h_tree h) -> time_zero_nanos < before ->
  vacuumed bf h before =
    filter (fun kv => kept before (snd kv) && negb (purge before (snd kv))) (h_tree h).
Proof. exact (vacuumed_eq bf h before). Qed.

Theorem C10_same_vacuum_again_changes_nothing (t : tree (cval row)) before :
  let f := fun kv : sval * cval row => kept before (snd kv) && negb (purge before (snd kv)) in
  filter f (filter f t) = filter f t.
Proof. exact (vacuum_idempotent t before). Qed.

(* a kept delete marker (or any newer entry) wins over an older write merged later *)
Theorem C10_newer_entry_wins_a_later_merge n (a b : cval row) :
  val_inv n a -> val_inv n b -> md a < md b ->
  merge_values a b = Some b /\ merge_values b a = Some b.
Proof. exact (merge_values_newer n a b). Qed.

Theorem C10_candidates_are_the_fully_superseded_versions (g : list (name * vobj)) before p :
  In p (candidates before g) <->
  In p (all_parents g) /\ forall kv, In kv (children_of g p) -> too_new before (snd kv) = false.
Proof. exact (candidates_spec g before p). Qed.

Theorem C10_too_new_means_created_after_the_cutoff before (v : vobj) cr :
  v_created v = Some cr -> too_new before v = true <-> before < cr.
Proof. intros H. unfold too_new. rewrite H. apply Z.ltb_lt. Qed.

(* traces are newest first *)
Theorem C10_version_records_outlive_their_nodes {V} (c : cfg (V := V)) oeq plan crash fuel i muts b h before b' res tr' :
  run oeq fuel plan crash i muts b (delete_historic c h before) [] = (b', res, tr') ->
  forall later r ok earlier, tr' = later ++ (r, ok) :: earlier -> is_vdel r = true ->
    ~ ndel_in later /\ ndels_ok earlier.
Proof. exact (delete_historic_records_outlive_nodes c oeq plan crash fuel i muts b h before b' res tr'). Qed.

Theorem C10_failed_node_deletion_keeps_every_version_record {V} (c : cfg (V := V)) oeq plan crash fuel i muts b h before b' res tr' n :
  run oeq fuel plan crash i muts b (delete_historic c h before) [] = (b', res, tr') ->
  In (RDel PNode n, false) tr' -> ~ vdel_in tr'.
Proof. exact (failed_node_deletion_keeps_the_records c oeq plan crash fuel i muts b h before b' res tr' n). Qed.
End C10.

(* non-vacuity: a handle commits three times (two superseded versions), then deletes all history
   while the first DELETE of a node object fails: the run fails, both version records are still
   there; the retry completes and leaves exactly what an uninterrupted deletion leaves *)
Definition c10_cfg := cfg_plain 0 4096.
Definition c10_set (h : handle) w k v := match kv_set c10_cfg h w (VInt k) v with Some h' => h' | None => h end.
Definition c10_setup : prog Z handle :=
  bind (open c10_cfg false None 100 [] []) (fun h0 =>
  bind (commit [] (c10_set h0 10 1 5)) (fun r1 =>
  bind (commit [] (c10_set (fst r1) 20 1 6)) (fun r2 =>
  bind (commit [] (c10_set (fst r2) 30 1 7)) (fun r3 => Ret (fst r3))))).
Definition c10_plan : list fault :=
  [{| f_kind := 3; f_pfx := PNode; f_name := None; f_occ := 0; f_out := OErr; f_sticky := false |}].
Definition c10_fuel := Z.to_nat 100000.
Example C10_interrupted_deletion_witness :
  let '(b0, r0, _) := run_plain c10_fuel [] None empty_bucket c10_setup in
  match r0 with
  | Done h =>
      let '(b1, r1, tr1) := run_plain c10_fuel c10_plan None b0 (delete_historic c10_cfg h 1000) in
      let '(b2, r2, _) := run_plain c10_fuel [] None b1 (delete_historic c10_cfg h 1000) in
      let '(b3, r3, _) := run_plain c10_fuel [] None b0 (delete_historic c10_cfg h 1000) in
      length (o_names (b_merged b0)) = 2%nat /\
      (exists e, r1 = Failed e) /\ (exists n, hd_error tr1 = Some (RDel PNode n, false)) /\
      o_names (b_merged b1) = o_names (b_merged b0) /\ o_names (b_node b1) = o_names (b_node b0) /\
      r2 = Done tt /\ r3 = Done tt /\
      o_names (b_merged b2) = [] /\ o_names (b_node b2) = o_names (b_node b3) /\
      length (o_names (b_node b2)) = 1%nat /\ o_names (b_cur b2) = o_names (b_cur b3)
  | _ => False
  end.
Proof. vm_compute. repeat split; try (eexists; reflexivity). Qed.

Print Assumptions C10_delete_marker_kept_iff_not_before_cutoff.
Print Assumptions C10_live_rows_keep_their_entry.
Print Assumptions C10_vacuumed_tree_is_a_filter.
Print Assumptions C10_same_vacuum_again_changes_nothing.
Print Assumptions C10_newer_entry_wins_a_later_merge.
Print Assumptions C10_candidates_are_the_fully_superseded_versions.
Print Assumptions C10_too_new_means_created_after_the_cutoff.
Print Assumptions C10_version_records_outlive_their_nodes.
Print Assumptions C10_failed_node_deletion_keeps_every_version_record.
Print Assumptions C10_interrupted_deletion_witness.
