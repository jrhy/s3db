(* MastInvProofs.v — what Insert does to the shape of the tree.  The level discipline
   (MastLevelProofs.lv / lvr) and "no linked node is empty" (MastCursorProofs.ne) are kept by split,
   by Insert with the paths it creates, and by grow; under the level discipline Insert never panics.
   Lifted to the handle: on a sorted tree that keeps the discipline, over keys whose equal members
   have equal layers, Insert never panics and keeps sortedness and the discipline ([MInv]; with [ne]
   as well: [MInv2] in MastNeProofs), and every lookup is the lookup of the sorted list.  (Delete, and the histories of both: MastDelProofs.v.) *)
From S3db Require Import Base KeyOrder Tree Mast.
From S3db.proofs Require Import TreeProofs MastProofs MastLevelProofs MastCursorProofs.
Import ListNotations.
Local Open Scope nat_scope.

Section Inv.
Context {V : Type}.
Notation mt := (mt V).
Notation ml := (ml V).
Notation tree := (tree V).
Variable lay : sval -> nat.
Notation lv := (lv lay).
Notation lv_l := (lv_l lay).
Notation lvr := (lvr lay).
Notation LC := (LC lay).

Lemma lv_mk_link h (n : mt) : lv h n -> lv_l (S h) (mk_link n).
Proof.
  unfold mk_link. destruct (is_empty n); [rewrite lv_LNil; trivial|rewrite lv_LNode_S; trivial].
Qed.

Lemma lv_node_of h (l : ml) : lv_l (S h) l -> lv h (node_of l).
Proof.
  destruct l as [|c]; cbn [node_of]; [rewrite lv_MEnd, lv_LNil; trivial|rewrite lv_LNode_S; trivial].
Qed.

Lemma ne_mk_link (n : mt) : ne n -> ne_l (mk_link n).
Proof.
  intros H. unfold mk_link. destruct (is_empty n) eqn:E; [exact I|]. rewrite ne_LNode. split; assumption.
Qed.

Lemma ne_node_of (l : ml) : ne_l l -> ne (node_of l).
Proof. destruct l as [|c]; cbn [node_of]; [intros _; exact I|rewrite ne_LNode; tauto]. Qed.

(* y has whichever of the two properties x has.  An operation rebuilds a node around the one piece it
   changes; the rules below say that the rest keeps the level discipline and links no empty node.
   (On MEnd l both properties are, by computation, those of the link l.) *)
Definition keeps {A : Type} (P Q : A -> Prop) (x y : A) : Prop := (P x -> P y) /\ (Q x -> Q y).

Lemma keeps_refl {A : Type} (P Q : A -> Prop) x : keeps P Q x x.
Proof. split; exact (fun H => H). Qed.

Lemma keeps_trans {A : Type} (P Q : A -> Prop) x y z : keeps P Q x y -> keeps P Q y z -> keeps P Q x z.
Proof. intros [Hp Hq] [Hp' Hq']. split; auto. Qed.

Lemma keeps_parts h (l : ml) k v r :
  keeps (lv h) ne (MCons l k v r) (MEnd l) /\ keeps (lv h) ne (MCons l k v r) r.
Proof. unfold keeps. rewrite lv_MCons, ne_MCons, lv_MEnd, ne_MEnd. tauto. Qed.

Lemma keeps_MCons h (l l' : ml) k v v' r r' : keeps (lv_l h) ne_l l l' -> keeps (lv h) ne r r' ->
  keeps (lv h) ne (MCons l k v r) (MCons l' k v' r').
Proof.
  intros [Hl Hn] [Hl' Hn']. split; [rewrite !lv_MCons; intros (Hk & H1 & H2)|rewrite !ne_MCons; intros [H1 H2]]; auto.
Qed.

(* a linked node sits one level down; on level 0 nothing is linked *)
Lemma keeps_LNode h (c c' : mt) : keeps (lv (pred h)) ne c c' -> is_empty c' = false ->
  keeps (lv_l h) ne_l (LNode c) (LNode c').
Proof.
  intros [Hl Hn] He. split; [destruct h; [exact (fun H => H)|exact Hl]|]. rewrite !ne_LNode. intros [_ H]. auto.
Qed.

Lemma keeps_mk_link h (c c' : mt) : keeps (lv (pred h)) ne c c' -> keeps (lv_l h) ne_l (LNode c) (mk_link c').
Proof.
  intros H. unfold mk_link. destruct (is_empty c') eqn:E; [split; intros _; exact I|exact (keeps_LNode h c c' H E)].
Qed.

(* a new entry on its own level, to the left of what stays of the node *)
Lemma keeps_entry h (n nb : mt) (a : ml) k v : lay k = h -> keeps (lv h) ne n (MEnd a) -> keeps (lv h) ne n nb ->
  keeps (lv h) ne n (MCons a k v nb).
Proof.
  intros Hk [Hl Hn] [Hl' Hn']. split; intros H; [exact (conj Hk (conj (Hl H) (Hl' H)))|exact (conj (Hn H) (Hn' H))].
Qed.

Lemma split_keeps :
  (forall (n : mt) h k,
      match split k n with Some (a, b) => keeps (lv h) ne n a /\ keeps (lv h) ne n b | None => True end) /\
  (forall (l : ml) h k,
      match split_l k l with Some (a, b) => keeps (lv_l h) ne_l l a /\ keeps (lv_l h) ne_l l b | None => True end).
Proof.
  apply (@mt_ml_ind V).
  - intros l IHl h k. rewrite split_MEnd. specialize (IHl h k). destruct (split_l k l) as [[la lb]|]; exact IHl.
  - intros l IHl k1 v1 r IHr h k. rewrite split_MCons. destruct (keeps_parts h l k1 v1 r) as [Pl Pr].
    destruct (order_t k1 k); [exact I| |].
    + specialize (IHr h k). destruct (split k r) as [[ra rb]|]; [|exact I]. destruct IHr as [Ha Hb].
      split; [apply keeps_MCons; [apply keeps_refl|exact Ha]|exact (keeps_trans _ _ _ _ _ Pr Hb)].
    + specialize (IHl h k). destruct (split_l k l) as [[la lb]|]; [|exact I]. destruct IHl as [Ha Hb].
      split; [exact (keeps_trans _ _ _ (MEnd l) (MEnd la) Pl Ha)|apply keeps_MCons; [exact Hb|apply keeps_refl]].
  - intros h k. rewrite split_LNil. split; apply keeps_refl.
  - intros n IHn h k. rewrite split_LNode. specialize (IHn (pred h) k). destruct (split k n) as [[na nb]|]; [|exact I].
    destruct IHn. split; apply keeps_mk_link; assumption.
Qed.

Lemma chain_shape d k (v : V) : lv (lay k + d) (chain d k v) /\ ne (chain d k v) /\ is_empty (chain d k v) = false.
Proof.
  induction d as [|d IH]; cbn [chain].
  - rewrite Nat.add_0_r. repeat split.
  - destruct IH as (Hl & Hn & He). rewrite Nat.add_succ_r. exact (conj Hl (conj (conj He Hn) eq_refl)).
Qed.

(* d counts the levels between the node and the key's layer *)
Lemma ins_keeps :
  (forall (n : mt) d k v,
      match ins d k v n with
      | Some (n', _) => keeps (lv (lay k + d)) ne n n' /\ is_empty n' = false
      | None => True
      end) /\
  (forall (l : ml) d k v,
      match ins_l d k v l with
      | Some (c, _) => keeps (lv_l (S (lay k + d))) ne_l l (LNode c)
      | None => True
      end).
Proof.
  apply (@mt_ml_ind V).
  - intros l IHl d k v. rewrite ins_MEnd. destruct d as [|d].
    + pose proof (proj2 split_keeps l (lay k) k) as S. destruct (split_l k l) as [[a b]|]; [|exact I].
      destruct S as [Ha Hb]. split; [|reflexivity]. rewrite Nat.add_0_r. apply keeps_entry; [reflexivity|exact Ha|exact Hb].
    + specialize (IHl d k v). destruct (ins_l d k v l) as [[c a]|]; [|exact I].
      split; [|reflexivity]. rewrite Nat.add_succ_r. exact IHl.
  - intros l IHl k1 v1 r IHr d k v. rewrite ins_MCons. destruct (order_t k k1).
    + destruct d; [|exact I]. split; [|reflexivity]. apply keeps_MCons; apply keeps_refl.
    + destruct d as [|d].
      * pose proof (proj2 split_keeps l (lay k) k) as S. destruct (split_l k l) as [[a b]|]; [|exact I].
        destruct S as [Ha Hb]. split; [|reflexivity]. rewrite Nat.add_0_r.
        apply keeps_entry; [reflexivity| |apply keeps_MCons; [exact Hb|apply keeps_refl]].
        exact (keeps_trans _ _ _ (MEnd l) (MEnd a) (proj1 (keeps_parts _ l k1 v1 r)) Ha).
      * specialize (IHl d k v). destruct (ins_l d k v l) as [[c a]|]; [|exact I].
        split; [|reflexivity]. rewrite Nat.add_succ_r. apply keeps_MCons; [exact IHl|apply keeps_refl].
    + specialize (IHr d k v). destruct (ins d k v r) as [[r' a]|]; [|exact I].
      split; [|reflexivity]. apply keeps_MCons; [apply keeps_refl|exact (proj1 IHr)].
  - intros d k v. rewrite ins_LNil. destruct (chain_shape d k v) as (Hl & Hn & He).
    split; intros _; [exact Hl|exact (conj He Hn)].
  - intros n IHn d k v. rewrite ins_LNode. specialize (IHn d k v). destruct (ins d k v n) as [[c a]|]; [|exact I].
    exact (keeps_LNode (S _) _ _ (proj1 IHn) (proj2 IHn)).
Qed.

Lemma push_lvr h (l : ml) k v g : lay k = h -> lv_l h l -> lvr (S h) g -> lvr (S h) (push l k v g).
Proof.
  intros Hk Hl. assert (Hc : forall c, lv_l (S h) c -> lv_l (S h) (mk_link (MCons l k v (node_of c)))).
  { intros c Hc. apply lv_mk_link. rewrite lv_MCons. auto using lv_node_of. }
  destruct g as [c|c k' v' r]; cbn [push MastLevelProofs.lvr]; [exact (Hc c)|]. intros (Hk' & Hc' & Hr). auto.
Qed.

(* the keys whose layer exceeds the height stay in the root, the others have exactly the height as their layer *)
Lemma grow_lvr h (n : mt) : lvr h n -> lvr (S h) (grow_node (fun k => Nat.ltb h (lay k)) n).
Proof.
  induction n as [l|l k v r IH]; cbn [MastLevelProofs.lvr].
  - intros Hl. rewrite grow_MEnd. cbn [MastLevelProofs.lvr]. apply lv_mk_link. rewrite lv_MEnd. exact Hl.
  - intros (Hk & Hl & Hr). rewrite grow_MCons. destruct (Nat.ltb_spec h (lay k)) as [Hlt|Hge].
    + cbn [MastLevelProofs.lvr]. repeat split; [exact Hlt|apply lv_mk_link; rewrite lv_MEnd; exact Hl|exact (IH Hr)].
    + apply push_lvr; [lia|exact Hl|exact (IH Hr)].
Qed.

Lemma push_ne (l : ml) k v g : ne_l l -> ne g -> ne (push l k v g).
Proof.
  intros Hl. assert (Hc : forall c, ne_l c -> ne_l (mk_link (MCons l k v (node_of c)))).
  { intros c Hc. apply ne_mk_link. rewrite ne_MCons. auto using ne_node_of. }
  destruct g as [c|c k' v' r]; cbn [push]; [rewrite !ne_MEnd; exact (Hc c)|]. rewrite !ne_MCons. intros [Hc' Hr]. auto.
Qed.

Lemma grow_ne promote (n : mt) : ne n -> ne (grow_node promote n).
Proof.
  induction n as [l|l k v r IH].
  - rewrite grow_MEnd, !ne_MEnd. intros Hl. apply ne_mk_link. rewrite ne_MEnd. exact Hl.
  - rewrite grow_MCons, ne_MCons. intros [Hl Hr]. destruct (promote k).
    + rewrite ne_MCons. split; [apply ne_mk_link; rewrite ne_MEnd; exact Hl|exact (IH Hr)].
    + apply push_ne; [exact Hl|exact (IH Hr)].
Qed.

End Inv.

Section Root.
Context {V : Type}.
Notation mt := (mt V).
Variable lay : sval -> nat.
Notation lvr := (lvr lay).
Notation LC := (LC lay).

(* the root is an inner node at the capped layer function (lvr_cap) *)
Lemma ins_lvr (n : mt) h k v n' ad : lvr h n ->
  ins (h - Nat.min (lay k) h) k v n = Some (n', ad) -> lvr h n'.
Proof.
  intros Hn Hi. pose proof (proj1 (ins_keeps (cap lay h)) n (h - Nat.min (lay k) h) k v) as H. rewrite Hi in H.
  destruct H as [[H _] _]. rewrite cap_depth in H. apply lvr_cap, H, lvr_cap, Hn.
Qed.

(* Insert panics only on a key that is held and not found (ins_flat); under the level discipline Get
   finds every key that is held *)
Lemma ins_total_root (n : mt) : forall h k v, D k -> wf (flat n) -> lvr h n -> LC k (flat n) ->
  ins (h - Nat.min (lay k) h) k v n <> None.
Proof.
  intros h k v Dk Hw Hn Hlc Hi. epose proof (proj1 ins_flat n _ k v Dk Hw) as H. rewrite Hi in H. destruct H as [Hg Ht].
  destruct (t_get k (flat n)) as [x|] eqn:G; [|exact (Ht eq_refl)].
  rewrite (get_complete_root lay n h k x Dk Hw Hn Hlc G) in Hg. discriminate.
Qed.

End Root.

Section Handle.
Context {V : Type}.
Variable bf : Z.
Variable P : sval -> Prop.                 (* the keys in use *)
Notation lay := (klayer bf).
(* equal keys of that universe have equal layers (false across INTEGER / REAL twins: F-C07-2) *)
Hypothesis P_layers : forall a b, P a -> P b -> order_t a b = Eq -> lay a = lay b.
Hypothesis P_safe : forall a, P a -> D a.

Definition keys_P (t : tree V) : Prop := Forall (fun x => P (fst x)) t.

Definition MInv (m : mast V) : Prop :=
  wf (mast_flat m) /\ keys_P (mast_flat m) /\
  lvr lay (m_height m) (node_of (m_root m)) /\ m_bf m = bf.

Lemma LC_of_P k (t : tree V) : P k -> keys_P t -> LC lay k t.
Proof.
  intros Hk Ht. unfold LC, keys_P in *. rewrite Forall_forall in *. intros x Hx He.
  symmetry. apply P_layers; [assumption|apply Ht; assumption|assumption].
Qed.

Lemma empty_inv : MInv (mast_empty bf).
Proof.
  unfold MInv, mast_empty, mast_load, mast_flat. cbn [m_root m_height m_bf node_of].
  rewrite flat_LNode, flat_MEnd, flat_LNil. repeat split; try constructor.
Qed.

Theorem mast_insert_keeps_invariant (m : mast V) k v : MInv m -> P k ->
  exists m', mast_insert m k v = Some m' /\ MInv m' /\ mast_flat m' = t_insert k v (mast_flat m).
Proof.
  intros (Hw & Hp & Hl & Hb) Hk. pose proof (P_safe k Hk) as Dk.
  destruct (mast_insert m k v) as [m'|] eqn:E.
  - exists m'. destruct (mast_insert_refines m m' k v Dk Hw E) as (Hf & Hw2 & _).
    split; [reflexivity|]. split; [|assumption].
    destruct (mast_insert_keeps (lvr lay) m m' k v) as (n & ad & Ei & H); [rewrite Hb; apply grow_lvr|exact E|].
    rewrite Hb in Ei. destruct (H (ins_lvr lay _ _ _ _ _ _ Hl Ei)) as (HQ & Hb' & _).
    split; [assumption|]. split; [rewrite Hf; apply insert_Forall; [exact Hk|exact (fun _ _ H => H)|exact Hp]|]. split; [exact HQ|congruence].
  - exfalso. unfold mast_insert in E. rewrite Hb, mast_flat_root in *.
    apply (ins_total_root lay (node_of (m_root m)) (m_height m) k v Dk Hw Hl (LC_of_P k _ Hk Hp)).
    destruct (ins _ k v (node_of (m_root m))); [discriminate|reflexivity].
Qed.

Theorem mast_get_is_list_get (m : mast V) k : MInv m -> P k -> mast_get m k = t_get k (mast_flat m).
Proof.
  intros (Hw & Hp & Hl & Hb) Hk. pose proof (P_safe k Hk) as Dk.
  destruct (t_get k (mast_flat m)) as [v|] eqn:G.
  - rewrite mast_flat_root in Hw, Hp, G. rewrite mast_get_root, Hb.
    apply (get_complete_root lay); try assumption. apply LC_of_P; assumption.
  - destruct (mast_get m k) as [v|] eqn:G2; [|reflexivity].
    rewrite (mast_get_sound m k v Dk Hw G2) in G. discriminate.
Qed.

(* a sequence of Inserts; None: one of them panicked *)
Fixpoint run_inserts (m : mast V) (ops : list (sval * V)) : option (mast V) :=
  match ops with
  | [] => Some m
  | (k, v) :: ops' => match mast_insert m k v with Some m' => run_inserts m' ops' | None => None end
  end.

End Handle.
