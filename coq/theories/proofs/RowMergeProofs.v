(* RowMergeProofs.v — the kv value join (LastWriteWins) is a selector of minimal rank; on
   SQL-reachable rows the s3db row join (mergeValues) is LastWriteWins. *)
From S3db Require Import Base KeyOrder RowMerge.
From S3db.proofs Require Import Selector.
Import ListNotations.
Open Scope Z_scope.

Section Lww.
Context {V : Type}.

(* rank: tombstones first (earliest best), then values (latest best) *)
Definition lww_rank (v : cval V) : Z * Z :=
  if tombstoned v then (0, tomb v) else (1, - md v).

Lemma lww_sel (a b : cval V) : last_write_wins a b = a \/ last_write_wins a b = b.
Proof. unfold last_write_wins. destruct (lww_pick a b); auto. Qed.

(* the argument picked has at most the rank of the other: of two tombstones the earlier is picked, of a
   tombstone and a value the tombstone, of two values the later *)
Lemma lww_pick_rank (a b : cval V) :
  if lww_pick a b then rle (lww_rank a) (lww_rank b) else rle (lww_rank b) (lww_rank a).
Proof.
  unfold lww_pick, lww_rank, rle.
  destruct (tombstoned a), (tombstoned b); cbn [orb negb fst snd];
    [destruct (Z.ltb_spec (tomb a) (tomb b)) | | | destruct (Z.leb_spec (md b) (md a))]; lia.
Qed.

Lemma lww_min (a b : cval V) :
  rle (lww_rank (last_write_wins a b)) (lww_rank a) /\
  rle (lww_rank (last_write_wins a b)) (lww_rank b).
Proof.
  pose proof (lww_pick_rank a b) as H. unfold last_write_wins.
  destruct (lww_pick a b); split; auto using rle_refl.
Qed.

(* LastWriteWins is a selector on all values: the domain predicate of Selector is trivial *)
Lemma Forall_True (l : list (cval V)) : Forall (fun _ => True) l.
Proof. apply Forall_forall. intros; exact I. Qed.

(* of two values of different rank the one of lower rank is returned, on whichever side it stands *)
Lemma lww_lower (a b : cval V) : rle (lww_rank a) (lww_rank b) -> lww_rank a <> lww_rank b ->
  last_write_wins a b = a /\ last_write_wins b a = a.
Proof.
  intros L N. apply (f_absorb _ (fun _ => True) lww_rank last_write_wins
                       (fun x y _ _ => lww_sel x y) (fun x y _ _ => lww_min x y)); auto.
  intros E. contradiction.
Qed.

Theorem tombstone_beats_value (t v : cval V) :
  tombstoned t = true -> tombstoned v = false ->
  last_write_wins t v = t /\ last_write_wins v t = t.
Proof. intros Ht Hv. apply lww_lower; unfold lww_rank; rewrite Ht, Hv; [left; cbn; lia|discriminate]. Qed.

Theorem earliest_tombstone_kept (a b : cval V) :
  tombstoned a = true -> tombstoned b = true -> tomb a < tomb b ->
  last_write_wins a b = a /\ last_write_wins b a = a.
Proof. intros Ha Hb Hlt. apply lww_lower; unfold lww_rank; rewrite Ha, Hb; [right; cbn; lia|intros [= E]; lia]. Qed.

Theorem latest_value_wins (a b : cval V) :
  tombstoned a = false -> tombstoned b = false -> md b < md a ->
  last_write_wins a b = a /\ last_write_wins b a = a.
Proof. intros Ha Hb Hlt. apply lww_lower; unfold lww_rank; rewrite Ha, Hb; [right; cbn; lia|intros [= E]; lia]. Qed.

End Lww.

(* What INSERT/UPDATE/DELETE through SQL store (see Stmt.v / StmtProofs.v): not tombstoned,
   delete/insert time = entry time, every one of the n declared non-key columns present and
   stamped with the entry time; deleted rows carry no columns. *)
Definition col_inv (c : option colval) : Prop :=
  match c with Some c => uoff c = 0 | None => False end.

Definition row_inv (n : nat) (r : row) : Prop :=
  doff r = 0 /\
  (del r = true -> cols r = []) /\
  (del r = false -> length (cols r) = n /\ Forall col_inv (cols r)).

Definition val_inv (n : nat) (v : cval row) : Prop :=
  tomb v = 0 /\ exists r, payload v = Some r /\ row_inv n r.

Definition row_rank (v : cval row) : Z * Z := (1, - md v).

Lemma adj_id t c : uoff c = 0 -> adj t c t = c.
Proof. intros H. unfold adj. destruct c as [u v]. cbn in *. f_equal. lia. Qed.

(* a column stamped with its row's time survives the merge into a row that is not older,
   unless a later reset hides it *)
Lemma keep_id t c reset : uoff c = 0 ->
  match reset with Some r => r <= t | None => True end -> keep t c reset t = Some c.
Proof.
  intros Hc Hr. unfold keep, hide. rewrite Hc, adj_id by exact Hc.
  destruct reset as [r|]; [|reflexivity]. destruct (Z.ltb_spec (t + 0) r); [lia|reflexivity].
Qed.

Lemma merge_col_newer t1 t2 reset c1 c2 : t1 <= t2 ->
  match reset with Some r => r <= t2 | None => True end ->
  match c1 with Some c => uoff c = 0 | None => True end -> col_inv c2 ->
  merge_col t1 t2 t2 reset c1 c2 = c2.
Proof.
  intros Hle Hr H1 H2. destruct c2 as [c2|]; [|contradiction].
  destruct c1 as [c1|]; cbn [merge_col]; [|apply keep_id; assumption].
  rewrite H1, H2. destruct (Z.ltb_spec (t2 + 0) (t1 + 0)); [lia|]. apply keep_id; assumption.
Qed.

(* the older side may have fewer columns (none: a deleted row, getRow's empty row) *)
Lemma merge_cols_newer t1 t2 reset l1 : forall l2,
  t1 <= t2 -> match reset with Some r => r <= t2 | None => True end ->
  (length l1 <= length l2)%nat -> Forall col_inv l1 -> Forall col_inv l2 ->
  merge_cols t1 t2 t2 reset l1 l2 = l2.
Proof.
  induction l1 as [|c1 l1 IH]; intros l2 Hle Hr Hlen H1 H2.
  - cbn [merge_cols]. rewrite <- (map_id l2) at 2. apply map_ext_Forall.
    revert H2. apply Forall_impl. intros c2 H. apply merge_col_newer; auto.
  - destruct l2 as [|c2 l2]; cbn [length] in Hlen; [lia|].
    cbn [merge_cols]. f_equal.
    + apply merge_col_newer; auto; [|exact (Forall_inv H2)]. destruct c1; [exact (Forall_inv H1)|exact I].
    + apply IH; eauto using Forall_inv_tail. lia.
Qed.

(* the newer row comes back unchanged when the older one has no delete offset, at most the table's
   columns, and every column it has is present with no update offset *)
Lemma merge_rows_older n t1 r1 t2 r2 :
  t1 <= t2 -> doff r1 = 0 -> (length (cols r1) <= n)%nat -> Forall col_inv (cols r1) ->
  row_inv n r2 -> merge_rows t1 r1 t2 r2 t2 = r2.
Proof.
  intros Hle D1 Len1 F1 (D2 & E2 & L2). unfold merge_rows. rewrite D1, D2.
  destruct (Z.ltb_spec (t2 + 0) (t1 + 0)); [lia|]. cbn [negb].
  destruct r2 as [[] df2 cs2]; cbn [del doff cols] in *; subst df2.
  - rewrite E2 by reflexivity. f_equal. lia.
  - destruct (L2 eq_refl) as [Len2 F2]. f_equal; [lia|].
    apply merge_cols_newer; auto; [|lia].
    destruct (del r1 && _); [lia|exact I].
Qed.

Lemma merge_rows_le n t1 r1 t2 r2 :
  t1 <= t2 -> row_inv n r1 -> row_inv n r2 -> merge_rows t1 r1 t2 r2 t2 = r2.
Proof.
  intros H (D1 & E1 & L1).
  assert (C : (length (cols r1) <= n)%nat /\ Forall col_inv (cols r1)).
  { destruct (del r1); [rewrite E1 by reflexivity; cbn; auto with arith|].
    destruct (L1 eq_refl) as [<- F]. auto. }
  apply merge_rows_older; (assumption || apply C).
Qed.

(* a statement applied to an absent key: getRow hands back the empty row at time zero *)
Lemma merge_rows_empty n t0 t r2 :
  t0 <= t -> row_inv n r2 -> merge_rows t0 empty_row t r2 t = r2.
Proof. intros H. apply merge_rows_older; cbn; auto with arith. Qed.

(* on SQL-reachable values mergeValues is LastWriteWins: the row of the entry that wins is
   returned unchanged, also when the two write times are equal *)
Theorem merge_values_lww n (a b : cval row) :
  val_inv n a -> val_inv n b -> merge_values a b = Some (last_write_wins a b).
Proof.
  intros (Ta & ra & Pa & Ia) (Tb & rb & Pb & Ib).
  unfold merge_values, last_write_wins, lww_pick, tombstoned.
  rewrite Ta, Tb, Pa, Pb. cbn [Z.eqb negb orb].
  destruct (Z.ltb_spec (md a) (md b)), (Z.leb_spec (md b) (md a)); try lia.
  all: rewrite (merge_rows_le n) by (assumption || lia); destruct a, b; cbn in *; subst; reflexivity.
Qed.

Lemma val_inv_live n v : val_inv n v -> tombstoned v = false.
Proof. intros (T & _). unfold tombstoned. rewrite T. reflexivity. Qed.

Lemma lww_rank_row n v : val_inv n v -> lww_rank v = row_rank v.
Proof. intros H. unfold lww_rank. rewrite (val_inv_live n v H). reflexivity. Qed.

(* mergeValues returns the newer of two SQL-reachable values, unchanged *)
Theorem merge_values_newer n (a b : cval row) :
  val_inv n a -> val_inv n b -> md a < md b ->
  merge_values a b = Some b /\ merge_values b a = Some b.
Proof.
  intros Ha Hb Hlt. rewrite !(merge_values_lww n) by assumption.
  destruct (latest_value_wins b a (val_inv_live n b Hb) (val_inv_live n a Ha) Hlt) as [-> ->]. auto.
Qed.

Theorem merge_values_same n (a : cval row) : val_inv n a -> merge_values a a = Some a.
Proof.
  intros Ha. rewrite (merge_values_lww n) by assumption.
  destruct (lww_sel a a) as [-> | ->]; reflexivity.
Qed.

(* total version for folding *)
Definition mv (a b : cval row) : cval row :=
  match merge_values a b with Some v => v | None => a end.

Lemma mv_lww n a b : val_inv n a -> val_inv n b -> mv a b = last_write_wins a b.
Proof. intros Ha Hb. unfold mv. rewrite (merge_values_lww n) by assumption. reflexivity. Qed.

Section MvSelector.
Variable n : nat.
Definition PInv (v : cval row) : Prop := val_inv n v.

(* the values that meet in merges: a set S of SQL-reachable values ... *)
Variable S : cval row -> Prop.
Hypothesis S_inv : forall v, S v -> val_inv n v.

Lemma mv_total a b : S a -> S b -> merge_values a b = Some (mv a b).
Proof. intros Sa Sb. rewrite (mv_lww n) by auto. apply (merge_values_lww n); auto. Qed.

Lemma mv_sel a b : S a -> S b -> mv a b = a \/ mv a b = b.
Proof. intros Sa Sb. rewrite (mv_lww n) by auto. apply lww_sel. Qed.

Lemma mv_min a b : S a -> S b ->
  rle (row_rank (mv a b)) (row_rank a) /\ rle (row_rank (mv a b)) (row_rank b).
Proof.
  intros Sa Sb.
  assert (Sm : S (mv a b)) by (destruct (mv_sel a b Sa Sb) as [-> | ->]; assumption).
  rewrite <- !(lww_rank_row n) by auto. rewrite (mv_lww n) by auto. apply lww_min.
Qed.

(* ... pairwise written at different times or identical: then the minimum is unique *)
Hypothesis S_compat : forall a b, S a -> S b -> md a = md b -> a = b.

Lemma row_rank_compat a b : S a -> S b -> row_rank a = row_rank b -> a = b.
Proof. intros Sa Sb H. apply S_compat; auto. injection H. lia. Qed.

Lemma S_pairwise l : Forall S l -> pairwise_compat _ row_rank l.
Proof. intros Hl a b Ha Hb Hr. rewrite Forall_forall in Hl. apply row_rank_compat; auto. Qed.

End MvSelector.

(* the general merge function is NOT associative on rows with partial column maps (reachable
   through the Go API, not through SQL) *)
Definition w_a : cval row := {| md := 10; tomb := 0; prev := 0;
  payload := Some {| del := false; doff := 0; cols := [Some {| uoff := 20; cv := VInt 1 |}; None] |} |}.
Definition w_b : cval row := {| md := 20; tomb := 0; prev := 0;
  payload := Some {| del := true; doff := 0; cols := [] |} |}.
Definition w_c : cval row := {| md := 25; tomb := 0; prev := 0;
  payload := Some {| del := false; doff := 0; cols := [None; Some {| uoff := 0; cv := VInt 2 |}] |} |}.

Definition abs_of (o : option (cval row)) :=
  match o with Some v => match payload v with Some r => Some (abs_row (md v) r) | None => None end | None => None end.

Theorem merge_rows_general_not_assoc_refuted :
  abs_of (match merge_values w_a w_b with Some ab => merge_values ab w_c | None => None end) <>
  abs_of (match merge_values w_b w_c with Some bc => merge_values w_a bc | None => None end).
Proof. vm_compute. discriminate. Qed.
