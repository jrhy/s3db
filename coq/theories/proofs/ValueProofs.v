(* ValueProofs.v — values are only ever selected, never altered, by the row merge; what a
   reader gets back for a stored value. *)
From S3db Require Import Base KeyOrder RowMerge KvProto Inst Stmt.
From S3db.proofs Require Import KeyOrderProofs.
Import ListNotations.
Open Scope Z_scope.

Lemma keep_val t c reset out r : keep t c reset out = Some r -> cv r = cv c.
Proof. unfold keep. destruct (hide t c reset); [discriminate|]. intros E. inversion E. reflexivity. Qed.

Lemma merge_col_val t1 t2 out reset c1 c2 r :
  merge_col t1 t2 out reset c1 c2 = Some r ->
  (exists c, c1 = Some c /\ cv c = cv r) \/ (exists c, c2 = Some c /\ cv c = cv r).
Proof.
  unfold merge_col. destruct c1 as [v1|], c2 as [v2|]; [destruct (_ <? _)| | |discriminate];
    intros H; apply keep_val in H; eauto.
Qed.

(* merge_cols is merge_col column by column, a missing column standing for None *)
Lemma nth_merge_cols t1 t2 out reset l1 : forall l2 i,
  nth i (merge_cols t1 t2 out reset l1 l2) None =
  merge_col t1 t2 out reset (nth i l1 None) (nth i l2 None).
Proof.
  induction l1 as [|c1 l1 IH]; intros l2 i; cbn [merge_cols].
  - replace (nth i [] None) with (@None colval) by (destruct i; reflexivity).
    exact (map_nth (merge_col t1 t2 out reset None) l2 None i).
  - destruct l2 as [|c2 l2], i as [|i]; cbn [nth]; try reflexivity; rewrite IH; destruct i; reflexivity.
Qed.

Lemma nth_some {A} (l : list (option A)) : forall i c, nth i l None = Some c -> nth_error l i = Some (Some c).
Proof. induction l as [|x l IH]; intros [|i] c; cbn; try discriminate; [intros ->; reflexivity|apply IH]. Qed.

(* every column value of a merged row is the value of the same column in one of the inputs *)
Theorem merge_cols_select t1 t2 out reset l1 l2 i r :
  nth_error (merge_cols t1 t2 out reset l1 l2) i = Some (Some r) ->
  (exists c, nth_error l1 i = Some (Some c) /\ cv c = cv r) \/
  (exists c, nth_error l2 i = Some (Some c) /\ cv c = cv r).
Proof.
  intros H. apply (nth_error_nth _ _ None) in H. rewrite nth_merge_cols in H.
  destruct (merge_col_val _ _ _ _ _ _ _ H) as [(c & E & Ec)|(c & E & Ec)]; [left|right];
    exists c; (split; [exact (nth_some _ _ _ E)|exact Ec]).
Qed.

Lemma row_values_nth n r i : (i < n)%nat ->
  nth_error (row_values n r) i =
  Some (match nth_error (cols r) i with Some (Some c) => bridge_result (cv c) | _ => VNull end).
Proof.
  intros Hi. refine (map_nth_error _ i (seq 0 n) _).
  rewrite (nth_error_nth' _ 0%nat) by (rewrite seq_length; exact Hi). rewrite seq_nth by exact Hi. reflexivity.
Qed.

(* a column that was never written reads as NULL *)
Theorem missing_column_is_null n r i : (i < n)%nat -> nth_error (cols r) i = None \/ nth_error (cols r) i = Some None ->
  nth_error (row_values n r) i = Some VNull.
Proof. intros Hi H. rewrite (row_values_nth n r i Hi). destruct H as [-> | ->]; reflexivity. Qed.

(* finding F-C08-2 on the model: INSERT 5.0; DELETE 5.0; INSERT 5 — every statement succeeds and the
   key that comes back is the OLD one (REAL), not the one the last INSERT was given *)
Definition reinsert_shape (tb : table) (k_old k_new v : sval) : Prop :=
  k_old <> k_new /\ order_exact k_old k_new = Some Eq /\
  (let '(t1, o1) := tbl_insert (cfg_rows 4096) tb 10 k_old [VInt 1] in
   let '(t2, o2) := tbl_delete (cfg_rows 4096) t1 20 k_old in
   let '(t3, o3) := tbl_insert (cfg_rows 4096) t2 30 k_new [v] in
   o1 = OK /\ o2 = OK /\ o3 = OK /\ select_model t3 false [] = Some [(k_old, [v])]).

Definition fresh_table : table :=
  {| tb_h := {| h_ro := false; h_tree := []; h_dirty := false; h_link := None; h_created := None;
                h_source := None; h_msources := []; h_mode := 1; h_bf := 4096; h_merged := [];
                h_tombstoned := false; h_conf := 0 |};
     tb_tx := None; tb_ncols := 1; tb_ro := false |}.

(* the proof below supplies the two comparisons it needs as hypotheses; [cbn] must not unfold the order *)
Local Arguments order_t : simpl never.

(* why the old key comes back: the DELETE leaves the REAL key in the tree with a deleted row, and the INSERT of an
   INTEGER that Key.Order calls equal finds that entry and replaces its value, not its key *)
Lemma reinsert_keeps_stored_key r z v : order (VInt z) (VReal r) = Some Eq ->
  let '(t1, o1) := tbl_insert (cfg_rows 4096) fresh_table 10 (VReal r) [VInt 1] in
  let '(t2, o2) := tbl_delete (cfg_rows 4096) t1 20 (VReal r) in
  let '(t3, o3) := tbl_insert (cfg_rows 4096) t2 30 (VInt z) [v] in
  o1 = OK /\ o2 = OK /\ o3 = OK /\ select_model t3 false [] = Some [(VReal r, [bridge_result v])].
Proof.
  intros E. assert (E1 : order_t (VInt z) (VReal r) = Eq) by (unfold order_t; rewrite E; reflexivity).
  assert (E0 : order_t (VReal r) (VReal r) = Eq) by apply go_fcmp_refl.
  unfold tbl_insert at 1. unfold get_row, kv_get, kv_set, h_update. cbn.
  unfold tbl_delete, get_row, kv_get, kv_set, h_update. cbn. rewrite !E0. cbn. rewrite !E1. cbn.
  repeat split; reflexivity.
Qed.

Lemma reinserted_key_class_witness : exists tb k_old k_new v, reinsert_shape tb k_old k_new v.
Proof.
  exists fresh_table, (VReal 4617315517961601024), (VInt 5), (VInt 2).
  assert (D : decode 4617315517961601024 = FNum (5 * scale)) by (vm_compute; reflexivity).
  split; [discriminate|]. split; [exact (proj2 (order_real_int _ _ _ D))|].
  apply reinsert_keeps_stored_key. exact (proj1 (order_int_real _ _ _ D)).
Qed.
