(* MastCeilProofs.v — Cursor.Ceil of the node-level tree positions an ascending scan on the first
   entry whose key is not below the operand: what remains to be visited from there is exactly
   `t_ceil k` of the in-order contents (the suffix the sorted-list model of a bounded scan starts
   from, Tree.v / ScanProofs). *)
From S3db Require Import Base KeyOrder Tree Mast.
From S3db.proofs Require Import TreeProofs MastProofs MastCursorProofs.
Import ListNotations.
Local Open Scope nat_scope.

Section Ceil.
Context {V : Type}.
Notation mt := (mt V).
Notation path := (list (mt * nat)).

(* the index Ceil settles on in a node holds the operand itself *)
Definition hit (k : sval) (n : mt) : bool :=
  match key_at n (search1 k n) with
  | Some (k', _) => match order_t k k' with Eq => true | _ => false end
  | None => false
  end.

Lemma ceil_unfold f k (n : mt) i0 (q : path) : c_ceil (S f) k ((n, i0) :: q) =
  let here := (n, search1 k n) :: q in
  if hit k n then here
  else match link_at n (search1 k n) with
       | Some (LNode c) => c_ceil f k ((c, 0) :: here)
       | _ => c_up_ceil here
       end.
Proof.
  unfold hit. cbn [c_ceil]. destruct (key_at n (search1 k n)) as [[k' v']|]; [destruct (order_t k k')|]; reflexivity.
Qed.

Lemma hit_lt k (n : mt) : hit k n = true -> search1 k n < nkeys n.
Proof.
  unfold hit. intros H. apply key_at_lt.
  destruct (key_at n (search1 k n)) as [kv|]; [eexists; reflexivity|discriminate].
Qed.

Lemma search1_le (n : mt) k : search1 k n <= nkeys n.
Proof. induction n as [l|l k1 v1 r IH]; cbn [search1 nkeys]; [lia|]. destruct (order_t k k1); lia. Qed.

(* Ceil within one sorted node: everything before the link at the index search1 finds is below k and
   drops out; the entry at the index, if any, and all after it are not below k and stay; only the
   child in between is still to be searched, unless that entry is k itself *)
Lemma ceil_node k (n : mt) : D k -> wf (flat n) ->
  exists l, link_at n (search1 k n) = Some l /\ wf (flat_l l) /\
    t_ceil k (flat n) = (if hit k n then [] else t_ceil k (flat_l l)) ++ suffix_from n (search1 k n).
Proof.
  intros Dk. induction n as [l0|l0 k1 v1 r IH]; intros Hw.
  - exists l0. split; [reflexivity|split; [exact Hw|]]. symmetry. apply app_nil_r.
  - destruct (wf_MCons_inv _ _ _ _ Hw) as (Wl & Wr & _). rewrite flat_MCons in Hw |- *.
    rewrite (ceil_pivot k _ _ _ _ Dk Hw). unfold hit. cbn [search1].
    destruct (order_t k k1) eqn:E; cbn [key_at link_at suffix_from]; [| |exact (IH Wr)];
      exists l0; rewrite E; (split; [reflexivity|split; [exact Wl|reflexivity]]).
Qed.

(* every index on the path is at most the number of keys of its node; Ceil's pop
   ("exhausted left subtree; go up to ceil") then stops where Forward's does *)
Definition idx_ok (p : path) : Prop := Forall (fun e => snd e <= nkeys (fst e)) p.

Lemma up_ceil_fwd (p : path) : idx_ok p -> c_up_ceil p = c_up_fwd p.
Proof.
  induction 1 as [|[n i] p Hi _ IH]; [reflexivity|]. cbn [fst snd] in Hi. cbn [c_up_ceil c_up_fwd]. rewrite IH.
  destruct (Nat.eqb_spec i (nkeys n)), (Nat.ltb_spec i (nkeys n)); try lia; reflexivity.
Qed.

Theorem ceil_remains F k : D k -> forall f (n : mt) i0 (q : path),
  depth n < f -> f <= F -> ne n -> wf (flat n) -> path_ok F q -> idx_ok q ->
  remains F (c_ceil f k ((n, i0) :: q)) (t_ceil k (flat n) ++ rest q).
Proof.
  intros Dk. induction f as [|f IH]; intros n i0 q Hd HF Hn Hw Hq Hi; [lia|].
  rewrite ceil_unfold. cbv zeta. destruct (ceil_node k n Dk Hw) as (l & Hl & Wl & ->). rewrite Hl.
  assert (Hp : path_ok F ((n, search1 k n) :: q)) by (apply path_ok_cons; split; [exact Hn|split; [lia|exact Hq]]).
  assert (Hi' : idx_ok ((n, search1 k n) :: q)) by (constructor; [apply search1_le|exact Hi]).
  destruct (hit k n) eqn:Eh.
  - exact (remains_here F ((n, search1 k n) :: q) (hit_lt k n Eh) Hp).
  - destruct (link_at_sub n _ l Hl) as [Hdl Hnl]. rewrite <- app_assoc. destruct l as [|c].
    + rewrite (up_ceil_fwd _ Hi'). exact (up_fwd_remains F _ Hp).
    + specialize (Hnl Hn). rewrite ne_LNode in Hnl. rewrite depth_LNode in Hdl. rewrite flat_LNode.
      apply IH; [lia|lia|apply Hnl|exact Wl|exact Hp|exact Hi'].
Qed.

(* a bounded ascending scan: Cursor, Ceil(k), then Get / Forward *)
Theorem ceil_scan fuel steps (m : mast V) k : D k -> wf (mast_flat m) ->
  ne (node_of (m_root m)) -> depth (node_of (m_root m)) < fuel -> length (mast_flat m) < steps ->
  c_walk_fwd steps fuel (c_ceil fuel k (mast_cursor m)) = t_ceil k (mast_flat m).
Proof.
  unfold mast_cursor, mast_flat. destruct (m_root m) as [|n]; cbn [node_of]; intros Dk Hw Hn Hd Hs.
  - destruct steps, fuel; reflexivity.
  - rewrite flat_LNode in Hw, Hs |- *. apply (walk_remains fuel).
    + rewrite <- (app_nil_r (t_ceil k (flat n))).
      apply (ceil_remains fuel k Dk); [exact Hd|lia|exact Hn|exact Hw|constructor|constructor].
    + pose proof (ceil_length k (flat n)). lia.
Qed.

Theorem bounded_scan_is_ceil fuel steps (m : mast V) k : D k -> wf (mast_flat m) ->
  ne (node_of (m_root m)) -> depth (node_of (m_root m)) < fuel -> m_root m <> LNil ->
  length (mast_flat m) < steps ->
  c_walk_fwd steps fuel (c_ceil fuel k (mast_cursor m)) = t_ceil k (mast_flat m).
Proof. intros Dk Hw Hn Hd _. apply ceil_scan; assumption. Qed.

End Ceil.
