(* DiffProofs.v — the key-wise diff of two trees (mast DiffIter as kv.Diff / s3db_changes use
   it) reports only keys whose entries differ, each with its two entries, and every such key
   (in which order, and that none comes twice, is not stated); and s3db_changes returns exactly
   the rows visible in the "to" version whose entry differs from the "from" version's (absent
   there or different), never fails, and never returns a deleted row.
   The diff is a merge join of two sorted lists; a round settles the least key of the two, and
   the proof follows it by lookups alone (splits, dspec_step). *)
From S3db Require Import Base KeyOrder RowMerge Tree KvProto Inst Stmt SqlSession.
From S3db.proofs Require Import TreeProofs EqbProofs.
Import ListNotations.
Open Scope Z_scope.

Section Diff.
Context {V : Type}.
Variable c : cfg (V := V).
Hypothesis veq_eq : forall a b, c_veq c a b = true -> a = b.
Hypothesis veq_refl : forall a, c_veq c a a = true.

Notation ctree := (tree (cval V)).
Notation entry := (sval * option (cval V) * option (cval V))%type.

Definition differ (a b : option (cval V)) : Prop :=
  match a, b with
  | Some x, Some y => c_veq c x y = false
  | None, None => False
  | _, _ => True
  end.

Lemma differ_neq a b : differ a b <-> a <> b.
Proof.
  destruct a as [x|], b as [y|]; cbn; [|split; [discriminate|constructor]..|split; [intros []|congruence]].
  split.
  - intros H [= ->]. rewrite veq_refl in H. discriminate.
  - intros H. destruct (c_veq c x y) eqn:E; [|reflexivity]. apply veq_eq in E. congruence.
Qed.

Definition ekey (e : entry) : sval := fst (fst e).

Definition entry_ok (mine from : ctree) (e : entry) : Prop :=
  let '(k, a, b) := e in D k /\ a = t_get k mine /\ b = t_get k from /\ differ a b.

(* what one round of the merge join reports at the least key [lo] of the two trees *)
Definition report (lo : sval) (a b : option (cval V)) : list entry :=
  match a, b with
  | Some x, Some y => if c_veq c x y then [] else [(lo, a, b)]
  | None, None => []
  | _, _ => [(lo, a, b)]
  end.

Lemma report_spec lo a b : (differ a b /\ report lo a b = [(lo, a, b)]) \/ (~ differ a b /\ report lo a b = []).
Proof. destruct a as [x|], b as [y|]; cbn; [destruct (c_veq c x y)|..]; auto using diff_true_false. Qed.

(* [t] as a map, seen from a key [lo] at or below its least key: [at_lo] at [lo], nothing below,
   above [lo] what [rest] holds; and [rest] holds nothing up to [lo] *)
Definition splits (lo : sval) (t : ctree) (at_lo : option (cval V)) (rest : ctree) : Prop :=
  forall k, D k ->
    t_get k t = match order_t k lo with Eq => at_lo | Lt => None | Gt => t_get k rest end /\
    (order_t k lo <> Gt -> t_get k rest = None).

Lemma splits_nil lo : splits lo [] None [].
Proof. intros k _. destruct (order_t k lo); auto. Qed.

Lemma splits_lt lo k1 v1 t : D lo -> D k1 -> order_t lo k1 = Lt -> splits lo ((k1, v1) :: t) None ((k1, v1) :: t).
Proof.
  intros Dl D1 L k Dk.
  assert (N : order_t k lo <> Gt -> t_get k ((k1, v1) :: t) = None).
  { intros N. cbn [t_get]. rewrite (ot_le_lt k lo k1) by assumption. reflexivity. }
  split; [|exact N]. destruct (order_t k lo); try reflexivity; apply N; discriminate.
Qed.

Lemma splits_eq lo k1 v1 t : D lo -> D k1 -> wf t -> all_above k1 t -> order_t lo k1 = Eq ->
  splits lo ((k1, v1) :: t) (Some v1) t.
Proof.
  intros Dl D1 Wt Ab E k Dk. rewrite (ot_eq_r lo k1 k) by assumption.
  split; [reflexivity|exact (get_below k1 k t D1 Dk (wf_keys _ Wt) Ab)].
Qed.

Definition dspec (mine from : ctree) (l : list entry) : Prop :=
  Forall (entry_ok mine from) l /\
  forall k, D k -> differ (t_get k mine) (t_get k from) -> exists e, In e l /\ order_t k (ekey e) = Eq.

(* one round: the entries at [lo] are compared, and what the rests report stays right for the
   whole trees, because entries that differ in the rests lie above [lo] *)
Lemma dspec_step lo a b (mine' from' mine from : ctree) l :
  D lo -> splits lo mine a mine' -> splits lo from b from' ->
  dspec mine' from' l -> dspec mine from (report lo a b ++ l).
Proof.
  intros Dl Sm Sf [Hok Hall]. split.
  - apply Forall_app. split.
    + destruct (report_spec lo a b) as [[Hd ->]|[_ ->]]; constructor; [|constructor].
      cbn. destruct (Sm lo Dl) as [-> _], (Sf lo Dl) as [-> _]. rewrite ot_refl by assumption. auto.
    + revert Hok. apply Forall_impl. intros [[k x] y] (Dk & -> & -> & Hd). cbn.
      destruct (Sm k Dk) as [-> Nm], (Sf k Dk) as [-> Nf].
      destruct (order_t k lo); [rewrite Nm, Nf in Hd by discriminate; destruct Hd..|auto].
  - intros k Dk Hd. destruct (Sm k Dk) as [Em _], (Sf k Dk) as [Ef _]. rewrite Em, Ef in Hd.
    destruct (order_t k lo) eqn:E.
    + destruct (report_spec lo a b) as [[_ ->]|[N _]]; [|contradiction]. eexists. split; [left; reflexivity|exact E].
    + destruct Hd.
    + destruct (Hall k Dk Hd) as (e & Hin & He). exists e. split; [apply in_or_app; right; exact Hin|exact He].
Qed.

Theorem diff_keys_spec fuel : forall mine from,
  wf mine -> wf from -> (length mine + length from < fuel)%nat -> dspec mine from (diff_keys c mine from fuel).
Proof.
  induction fuel as [|f IH]; intros mine from Wm Wf Hlen; [lia|].
  destruct Wm as [|k1 v1 m' Dk1 Wm' Ab1], Wf as [|k2 v2 f' Dk2 Wf' Ab2]; cbn [diff_keys length] in *.
  - split; [constructor|]. intros k _ [].
  - apply (dspec_step k2 None (Some v2) [] f'); [assumption|apply splits_nil|apply splits_eq; auto using ot_refl|].
    apply IH; [constructor|assumption|cbn; lia].
  - apply (dspec_step k1 (Some v1) None m' []); [assumption|apply splits_eq; auto using ot_refl|apply splits_nil|].
    apply IH; [assumption|constructor|cbn; lia].
  - destruct (order_t k1 k2) eqn:E12.
    + (* both heads go; mast reports the key of [from] *)
      replace (if c_veq c v1 v2 then _ else _) with (report k2 (Some v1) (Some v2) ++ diff_keys c m' f' f)
        by (cbn; destruct (c_veq c v1 v2); reflexivity).
      apply (dspec_step k2 _ _ m' f'); [assumption|apply splits_eq; auto using ot_eq_sym|apply splits_eq; auto using ot_refl|].
      apply IH; [assumption..|lia].
    + apply (dspec_step k1 (Some v1) None m' ((k2, v2) :: f'));
        [assumption|apply splits_eq; auto using ot_refl|apply splits_lt; assumption|].
      apply IH; [assumption|constructor; assumption|cbn; lia].
    + apply (dspec_step k2 None (Some v2) ((k1, v1) :: m') f');
        [assumption|apply splits_lt; auto using ot_gt_lt|apply splits_eq; auto using ot_refl|].
      apply IH; [constructor; assumption|assumption|cbn; lia].
Qed.

(* kv.Diff: exactly the keys whose entries differ *)
Theorem raw_diff_spec mine from : wf mine -> wf from ->
  Forall (entry_ok mine from) (raw_diff c mine from) /\
  (forall k, D k -> t_get k mine <> t_get k from ->
     exists e, In e (raw_diff c mine from) /\ order_t k (ekey e) = Eq).
Proof.
  intros Wm Wf.
  destruct (diff_keys_spec (length mine + length from + 1) mine from Wm Wf ltac:(lia)) as (B & C).
  split; [exact B|]. intros k Dk Hn. apply C; [exact Dk|]. apply differ_neq. exact Hn.
Qed.

End Diff.

(* a fold whose step, handed a list, puts some elements in front of it never fails: it is a flat_map *)
Lemma fold_right_some {A B} (f : A -> option (list B) -> option (list B)) (g : A -> list B) :
  (forall x l, f x (Some l) = Some (g x ++ l)) -> forall xs, fold_right f (Some []) xs = Some (flat_map g xs).
Proof. intros H xs. induction xs as [|x xs IH]; cbn [fold_right flat_map]; [reflexivity|]. rewrite IH. apply H. Qed.

Section Changes.
Variable bf : Z.
Notation cfgr := (cfg_rows bf).

(* the rows of a version that SQL shows: entries with a row that is not deleted *)
Definition visible_row (t : tree (cval row)) (k : sval) : option row :=
  match t_get k t with
  | Some v => match payload v with Some r => if del r then None else Some r | None => None end
  | None => None
  end.

(* [visible_row t k] is [shown (t_get k t)] *)
Definition shown (a : option (cval row)) : option row :=
  match a with Some v => row_live v | None => None end.

(* the fold of changes_rows lists the shown "to" entries of the diff *)
Lemma changes_rows_eq n to_t from_t :
  changes_rows cfgr n to_t from_t =
  Some (flat_map (fun '(k, a, _) => match shown a with Some r => [(bridge_result k, row_values n r)] | None => [] end)
                 (raw_diff cfgr to_t from_t)).
Proof.
  apply fold_right_some. intros [[k a] b] l.
  destruct a as [v|]; [unfold shown, row_live; destruct (payload v) as [r|]; [destruct (del r)|]|]; reflexivity.
Qed.

(* what s3db_changes(from, to) returns: exactly the rows visible in "to" whose entry differs
   from (or is absent in) "from"; rows deleted in "to" are not returned *)
Theorem changes_rows_spec n to_t from_t : wf to_t -> wf from_t ->
  exists l, changes_rows cfgr n to_t from_t = Some l /\
    (* every returned row is a visible row of "to" whose entry differs from "from"'s *)
    (forall x, In x l -> exists k r, D k /\ visible_row to_t k = Some r /\ t_get k to_t <> t_get k from_t /\
                                     x = (bridge_result k, row_values n r)) /\
    (* every visible row of "to" whose entry differs is returned *)
    (forall k r, D k -> visible_row to_t k = Some r -> t_get k to_t <> t_get k from_t ->
       exists k', order_t k k' = Eq /\ In (bridge_result k', row_values n r) l).
Proof.
  intros Wt Wf. eexists. split; [apply changes_rows_eq|].
  destruct (raw_diff_spec cfgr cval_row_eqb_eq cval_row_eqb_refl to_t from_t Wt Wf) as (B & C). rewrite Forall_forall in B.
  split.
  - intros x Hx. apply in_flat_map in Hx as ([[k a] b] & Hin & Hx). destruct (B _ Hin) as (Dk & -> & -> & Hd).
    exists k. change (visible_row to_t k) with (shown (t_get k to_t)).
    destruct (shown (t_get k to_t)) as [r|]; [|destruct Hx]. destruct Hx as [<-|[]].
    exists r. apply (differ_neq cfgr cval_row_eqb_eq cval_row_eqb_refl) in Hd. auto.
  - intros k r Dk Hv Hn. destruct (C k Dk Hn) as ([[k' a] b] & Hin & He). destruct (B _ Hin) as (Dk' & -> & _).
    exists k'. split; [exact He|]. apply in_flat_map. eexists. split; [exact Hin|].
    change (shown (t_get k to_t) = Some r) in Hv. rewrite (get_eq_key k k' to_t Dk Dk' Wt He) in Hv.
    cbn. rewrite Hv. left. reflexivity.
Qed.

End Changes.
