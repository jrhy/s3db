(* NodeCodecProofs.v — decode (encode n) = n for every node whose links are absent or
   non-empty names (object names are hashes, never empty). *)
From S3db Require Import Base NodeCodec.
Import ListNotations.

Definition links_ok (n : mnode) : Prop := Forall (fun l => l <> Some []) (n_links n).

Theorem node_roundtrip_id n : links_ok n -> node_roundtrip n = n.
Proof.
  destruct n as [ks vs ls]. unfold links_ok, node_roundtrip, unmarshal_node, marshal_node. cbn.
  intros H. f_equal. induction H as [|l ls Hl _ IH]; [reflexivity|]. cbn [map]. f_equal; [|exact IH].
  destruct l as [[|x s]|]; [contradiction|reflexivity|reflexivity].
Qed.

(* the guard is exact: a link named "" does not survive *)
Theorem node_roundtrip_empty_name ks vs : 
  node_roundtrip {| n_keys := ks; n_vals := vs; n_links := [Some []] |} =
  {| n_keys := ks; n_vals := vs; n_links := [None] |}.
Proof. reflexivity. Qed.
