(* SessionProofs.v — a connection whose table was created with the readonly option issues no
   PUT and no DELETE, whatever statements and maintenance functions it runs, under every fault
   plan; its write statements leave the table as it was, and an INSERT never answers OK. *)
From S3db Require Import Base RowMerge KvProto Stmt SqlSession.
From S3db.proofs Require Import ProtoProofs StmtProofs.
Import ListNotations.
Open Scope Z_scope.

Section RoSession.
Variable cfg : KvProto.cfg (V := row).
Variable now : time.

Definition ro_table (tb : table) : Prop :=
  tb_ro tb = true /\ h_ro (tb_h tb) = true /\
  match tb_tx tb with Some h => h_ro h = true | None => True end.

Definition ro_session (sc : sconn) : Prop :=
  match sc_tb sc with Some tb => ro_table tb | None => True end.

Lemma ro_insert tb t key vals : ro_table tb ->
  tbl_insert cfg tb t key vals = (tb, ErrNotNull) \/ tbl_insert cfg tb t key vals = (tb, ErrPK) \/
  tbl_insert cfg tb t key vals = (tb, ErrOther) \/ tbl_insert cfg tb t key vals = (tb, Panic).
Proof.
  intros (_ & R & _). destruct (tbl_insert cfg tb t key vals) as [tb' o] eqn:I.
  destruct (insert_outcome cfg tb t key vals _ I) as [(v & h' & K & _)|[E N]]; cbn [fst snd] in *.
  - unfold kv_set in K. rewrite R in K. discriminate.
  - subst tb'. destruct o; [congruence|auto..].
Qed.

Lemma ro_update_keeps tb t key a : ro_table tb -> fst (tbl_update cfg tb t key a) = tb.
Proof. intros (_ & R & _). exact (wrote_ro cfg tb t key _ R (update_wrote cfg tb t key a)). Qed.

Lemma ro_delete_keeps tb t key : ro_table tb -> fst (tbl_delete cfg tb t key) = tb.
Proof. intros (_ & R & _). exact (wrote_ro cfg tb t key _ R (delete_wrote cfg tb t key)). Qed.

Lemma ro_begin tb tb' : ro_table tb -> tbl_begin tb = Some tb' -> ro_table tb'.
Proof.
  intros (A & B & C). unfold tbl_begin. destruct (tb_tx tb); [discriminate|]. intros E. inversion E; subst.
  repeat split; auto.
Qed.

Lemma ro_rollback tb : ro_table tb -> ro_table (tbl_rollback tb).
Proof.
  intros (A & B & C). unfold tbl_rollback. destruct (tb_tx tb) as [h|] eqn:E.
  - split; [exact A|]. split; [exact C|]. exact I.
  - split; [exact A|]. split; [exact B|]. rewrite E. exact I.
Qed.

(* every session operation on a read-only table is a program without mutations: the write
   statements through [sql_write_ro_nm], operation by operation in C13; vacuum below *)
Lemma finish_ok_ro_nm sc tb c corder : ro_table tb -> no_mut (finish_ok sc tb c corder).
Proof. intros (A & _ & _). unfold finish_ok. rewrite A. constructor. Qed.

Lemma sql_write_ro_nm sc corder body : ro_session sc ->
  (forall tb t, ro_table tb -> ro_table (fst (body tb t))) ->
  no_mut (sql_write now sc corder body).
Proof.
  intros Hs Hb. unfold sql_write, ro_session in *. destruct (sc_tb sc) as [tb|]; [|constructor].
  destruct (if sc_joined sc then Some tb else tbl_begin tb) as [tb1|] eqn:E; [|constructor].
  assert (R1 : ro_table tb1).
  { destruct (sc_joined sc); [inversion E; subst; exact Hs | eapply ro_begin; eauto]. }
  specialize (Hb tb1 (stmt_time (if sc_joined sc then sc_conn sc else conn_begin (sc_conn sc) now) now) R1).
  destruct (body tb1 _) as [tb2 o]. cbn [fst] in Hb.
  destruct (sc_explicit sc); [constructor|].
  destruct o; try constructor. apply finish_ok_ro_nm. exact Hb.
Qed.

Lemma body_insert_ro key vals tb t : ro_table tb -> ro_table (fst (tbl_insert cfg tb t key vals)).
Proof.
  intros R. destruct (ro_insert tb t key vals R) as [E|[E|[E|E]]]; rewrite E; exact R.
Qed.

(* a loop of statements each of which leaves the table as it is *)
Lemma fold_keeps {X} (step : table -> X -> table * outcome_t) tb :
  (forall x, fst (step tb x) = tb) -> forall rows o,
  fst (fold_left (fun '(tb', o') x => match o' with OK => step tb' x | _ => (tb', o') end) rows (tb, o)) = tb.
Proof.
  intros K. induction rows as [|x rows IH]; intros o; cbn [fold_left]; [reflexivity|].
  destruct o; try apply IH. rewrite (surjective_pairing (step tb x)), K. apply IH.
Qed.

Lemma h_update_ro_flag (h : rhandle) k cv0 : h_ro (h_update cfg h k cv0) = h_ro h.
Proof. reflexivity. Qed.

Lemma vacuum_rows_ro (h : rhandle) before : h_ro h = true -> vacuum_rows cfg h before = h.
Proof.
  unfold vacuum_rows. generalize (h_tree h). intros l. revert h.
  induction l as [|[k v] l IH]; intros h R; cbn [fold_left]; [reflexivity|].
  destruct (tombstoned v); [apply IH; exact R|].
  destruct (payload v) as [r|]; [|apply IH; exact R].
  destruct (del r && _); [|apply IH; exact R].
  unfold kv_tombstone. rewrite R. apply IH. exact R.
Qed.

Theorem ro_vacuum_nm sc corder before : ro_session sc -> no_mut (sql_vacuum cfg sc corder before).
Proof.
  intros Hs. unfold sql_vacuum, ro_session in *. destruct (sc_tb sc) as [tb|]; [|constructor].
  destruct Hs as (A & B & C).
  apply no_mut_bind; [|intros [tb' derr]; constructor].
  unfold tbl_vacuum. rewrite (vacuum_rows_ro _ _ B).
  destruct (commit_ro corder (kv_remove_tombstones (tb_h tb) before) B) as [r ->]. cbn [Store.bind].
  destruct r; [|constructor].
  apply no_mut_bind; [|intros; constructor].
  apply no_mut_catch. apply delete_historic_ro_nm. exact B.
Qed.

End RoSession.
