(* BranchFactorProofs.v — the branch factor of a table is fixed by its first version.
   Whatever branch factor a client configures (cfg.c_bf), a handle obtained by Open over stored
   versions has the branch factor recorded in those versions, all versions that went into one
   handle agree on it, and every version a Commit stores carries the handle's branch factor.
   Hence the configured value only matters for a table that has no version yet, and versions of
   one lineage never differ in branch factor (which would make them unmergeable: E_BF).
   Stated over [returns p a] (ProtoProofs): some sequence of storage responses, any faults and any
   contents, makes p return a; shown along each program as [rets P p].  C04. *)
From S3db Require Import Base Tree Store KvProto.
From S3db.proofs Require Import ExecProofs ProtoProofs CommitProofs.
Import ListNotations.
Open Scope Z_scope.

Section BF.
Context {V : Type}.
Variable c : cfg (V := V).

Definition all_bf (z : Z) (m : list (name * vobj)) : Prop := forall k r, In (k, r) m -> v_bf r = z.

Lemma all_bf_add z key root m : all_bf z m -> v_bf root = z -> all_bf z (merged_add key root m).
Proof.
  intros Hm Hr k r H. apply merged_add_in in H. destruct H as [E|H]; [injection E as _ ->; exact Hr|exact (Hm _ _ H)].
Qed.

(* what mergeRoots keeps true of (accumulator, merged versions): nothing merged yet, or at least
   one version, all with the accumulator's branch factor *)
Definition bf_inv (acc : option (macc (V := V))) (merged : list (name * vobj)) : Prop :=
  match acc with
  | None => merged = []
  | Some a => all_bf (a_bf a) merged /\ merged <> []
  end.

Lemma bf_inv_add z key root merged : (merged = [] \/ all_bf z merged) -> v_bf root = z ->
  all_bf z (merged_add key root merged) /\ merged_add key root merged <> [].
Proof.
  intros Hm Hr. split.
  - apply all_bf_add; [|exact Hr]. destruct Hm as [->|Hm]; [intros k r []|exact Hm].
  - intros E. pose proof (in_merged_add key root merged) as Hin. rewrite E in Hin. exact Hin.
Qed.

Lemma merge_loop_bf ps skip names : forall acc merged, bf_inv acc merged ->
  rets (fun r => bf_inv (fst r) (snd r)) (merge_loop c ps skip names acc merged).
Proof.
  induction names as [|key rest IH]; intros acc merged Hi; [apply rets_ret; exact Hi|]. rewrite merge_loop_cons.
  eapply rets_bind; [apply rets_any|]. intros [root|] _; [|destruct skip; [apply IH, Hi|apply rets_fail]].
  eapply rets_bind; [apply rets_any|]. intros [graft| |e] _; [|destruct skip; [apply IH, Hi|apply rets_fail]|apply rets_fail].
  destruct acc as [a|]; [|apply IH, bf_inv_add; auto].
  destruct (a_bf a =? v_bf root) eqn:Ebf; cbn [negb]; [|apply rets_fail]. apply Z.eqb_eq in Ebf.
  eapply rets_bind; [apply rets_any|]. intros cl _.
  apply if_both; [apply rets_fail|]. apply if_both; [apply IH, Hi|].
  apply if_both; [apply rets_fail|].
  eapply rets_bind; [apply rets_any|]. intros ok _. apply if_both; [apply rets_fail|].
  destruct (merge_into (c_merge c) (c_veq c) (a_tree a) graft) as [t'|]; [|apply rets_fail].
  apply IH, bf_inv_add; [right; apply Hi|auto].
Qed.

(* the handle a Commit returns: unchanged, flushed after a failed PUT, or the published version *)
Definition commit_ret (h : handle (V := V)) (x : handle (V := V) * cres) : Prop :=
  let (h', r) := x in
  h' = h \/
  (exists link e, h' = h_flushed h link /\ r = CFail e) \/
  (exists link n, h' = committed h link n).

Lemma commit_returns order (h : handle (V := V)) : rets (commit_ret h) (commit order h).
Proof.
  assert (Fl : forall link, @rets V _ (commit_ret h) (Ret (h_flushed h link, CFail E_STORE))).
  { intros link. apply rets_ret. right; left. eauto. }
  rewrite commit_eq.
  apply if_both; [apply rets_ret; left; reflexivity|].
  apply if_both; [apply rets_ret; left; reflexivity|].
  eapply rets_bind; [apply rets_any|]. intros [link stored] _.
  destruct stored; cbn [negb]; [|apply Fl].
  apply rets_do. intros [| | |n| |]; try apply rets_fail.
  apply rets_do. intros x. destruct x; try apply Fl.
  eapply rets_bind; [apply rets_any|]. intros u _. apply rets_ret. right; right. eauto.
Qed.

(* Commit never changes the handle's branch factor; the version it publishes carries it, and that
   version is what the handle then descends from *)
Lemma commit_bf order (h h' : handle (V := V)) r :
  returns (commit order h) (h', r) ->
  all_bf (h_bf h) (h_merged h) -> h_bf h' = h_bf h /\ all_bf (h_bf h') (h_merged h').
Proof.
  intros R Hm. destruct (commit_returns order h (h', r) R) as [->|[(link & e & -> & _)|(link & n & ->)]]; cbn; auto.
  split; [reflexivity|]. intros k0 r0 [E|[]]. injection E as _ <-. reflexivity.
Qed.

(* every version that went into the handle has the handle's branch factor, and the configured value
   is used only when nothing was merged *)
Definition stored_bf (h : handle (V := V)) : Prop :=
  all_bf (h_bf h) (h_merged h) /\ (h_merged h = [] -> h_bf h = c_bf c).

(* the commit that ends a read-write open: the handle after it has an empty merged list only if
   nothing was published *)
Lemma open_commit_bf (ro : bool) corder (h0 : handle (V := V)) : stored_bf h0 ->
  rets stored_bf (if ro then Ret h0
                  else bind (commit corder h0) (fun '(h', r) => match r with COk _ => Ret h' | CFail e => Fail e end)).
Proof.
  intros H0. destruct ro; [apply rets_ret; exact H0|].
  eapply rets_bind; [apply commit_returns|]. intros [h' r] Rc. destruct r as [n|e]; [|apply rets_fail]. apply rets_ret.
  destruct Rc as [->|[(link & e & _ & Hr)|(link & n' & ->)]]; [exact H0|discriminate|].
  split; [|discriminate]. intros k0 r0 [E|[]]. injection E as _ <-. reflexivity.
Qed.

(* Open: the branch factor is the stored one, whatever this client configured *)
Theorem open_bf ro only when order corder (h : handle (V := V)) :
  returns (open c ro only when order corder) h ->
  all_bf (h_bf h) (h_merged h) /\ (h_merged h = [] -> h_bf h = c_bf c).
Proof.
  revert h. change (rets stored_bf (open c ro only when order corder)). unfold open.
  apply if_both; [apply rets_fail|].
  eapply rets_bind; [apply rets_any|]. intros [[names ps] skip] _.
  eapply rets_bind; [apply merge_loop_bf; reflexivity|]. intros [acc merged] Rl. cbn [fst snd] in Rl.
  apply open_commit_bf. unfold stored_bf. destruct acc as [a|]; cbn [h_bf h_merged bf_inv] in *.
  - destruct Rl. split; [assumption|contradiction].
  - subst merged. split; [intros k r []|reflexivity].
Qed.

End BF.
