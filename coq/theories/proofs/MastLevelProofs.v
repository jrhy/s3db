(* MastLevelProofs.v — the LEVEL discipline of the node-level tree (Mast.v): every entry sits on the
   level its key's layer names (entries of the root: at least the height), children are one level
   down.  Under that discipline, on sorted trees over keys for which equal keys have equal layers,
   Get finds every entry the tree holds (completeness; soundness is in MastProofs.v).
   The layer function is a Section variable: nothing depends on how Key.Layer hashes. *)
From S3db Require Import Base KeyOrder Tree Mast.
From S3db.proofs Require Import TreeProofs MastProofs MastCursorProofs.
Import ListNotations.
Local Open Scope nat_scope.

Section Levels.
Context {V : Type}.
Notation mt := (mt V).
Notation ml := (ml V).
Notation tree := (tree V).
Variable lay : sval -> nat.

(* an inner node of level h: its keys have layer h, its children are inner nodes of level h-1 *)
Fixpoint lv (h : nat) (n : mt) : Prop :=
  match n with
  | MEnd l => lv_l h l
  | MCons l k _ r => lay k = h /\ lv_l h l /\ lv h r
  end
with lv_l (h : nat) (l : ml) : Prop :=
  match l with
  | LNil => True
  | LNode c => match h with O => False | S h' => lv h' c end
  end.

(* the root of a tree of height h: its keys have layer >= h *)
Fixpoint lvr (h : nat) (n : mt) : Prop :=
  match n with
  | MEnd l => lv_l h l
  | MCons l k _ r => h <= lay k /\ lv_l h l /\ lvr h r
  end.

Lemma lv_MEnd h (l : ml) : lv h (MEnd l) = lv_l h l. Proof. reflexivity. Qed.
Lemma lv_MCons h (l : ml) k v r : lv h (MCons l k v r) = (lay k = h /\ lv_l h l /\ lv h r).
Proof. reflexivity. Qed.
Lemma lv_LNil h : lv_l h (@LNil V) = True. Proof. reflexivity. Qed.
Lemma lv_LNode_O (c : mt) : lv_l 0 (LNode c) = False. Proof. reflexivity. Qed.
Lemma lv_LNode_S h (c : mt) : lv_l (S h) (LNode c) = lv h c. Proof. reflexivity. Qed.

Lemma lv_lvr h (n : mt) : lv h n -> lvr h n.
Proof.
  induction n as [l|l k v r IH]; [rewrite lv_MEnd; exact (fun x => x)|].
  rewrite lv_MCons. intros (Hk & Hl & Hr). cbn [lvr]. repeat split; [lia|assumption|auto].
Qed.

Definition lay_lt (h : nat) (t : tree) : Prop := Forall (fun x => lay (fst x) < h) t.

Lemma lv_bounds :
  (forall (n : mt) h, lv h n -> lay_lt (S h) (flat n) /\ depth n <= h) /\
  (forall (l : ml) h, lv_l h l -> lay_lt h (flat_l l) /\ depth_l l <= h).
Proof.
  assert (Up : forall h t, lay_lt h t -> lay_lt (S h) t) by (intros h t; apply Forall_impl; intros; lia).
  apply (@mt_ml_ind V).
  - intros l IHl h. rewrite lv_MEnd, flat_MEnd, depth_MEnd. intros H. destruct (IHl h H). auto.
  - intros l IHl k v r IHr h. rewrite lv_MCons, flat_MCons, depth_MCons. intros (Hk & Hl & Hr).
    destruct (IHl h Hl) as [Bl Dl], (IHr h Hr) as [Br Dr]. split; [|lia].
    apply Forall_app. split; [exact (Up _ _ Bl)|]. constructor; [cbn [fst]; lia|exact Br].
  - intros h _. split; [constructor|cbn [depth_l]; lia].
  - intros n IHn [|h']; [rewrite lv_LNode_O; contradiction|]. rewrite lv_LNode_S, flat_LNode, depth_LNode.
    intros H. destruct (IHn h' H). split; [assumption|lia].
Qed.

(* equal keys have equal layers, as far as this tree and this key are concerned *)
Definition LC (k : sval) (t : tree) : Prop :=
  Forall (fun x => order_t k (fst x) = Eq -> lay (fst x) = lay k) t.

Lemma LC_app k (a b : tree) : LC k (a ++ b) <-> LC k a /\ LC k b.
Proof. unfold LC. apply Forall_app. Qed.

Lemma get_some_lay k (t : tree) v h : LC k t -> lay_lt h t -> t_get k t = Some v -> lay k < h.
Proof.
  intros Hlc Hlt Hg. destruct (get_some_in _ _ _ Hg) as (k' & Hin & He).
  unfold LC, lay_lt in *. rewrite Forall_forall in *.
  specialize (Hlc _ Hin He). specialize (Hlt _ Hin). cbn [fst] in *. lia.
Qed.

(* d counts the levels between the node and the key's layer; the statement about a link is about what its
   node does with it: the link is followed only from a node above the key's layer *)
Lemma get_complete_inner :
  (forall (n : mt) d k v, D k -> wf (flat n) -> lv (lay k + d) n -> LC k (flat n) ->
      t_get k (flat n) = Some v -> get d k n = Some v) /\
  (forall (l : ml) d k v, D k -> wf (flat_l l) -> lv_l (lay k + d) l -> LC k (flat_l l) ->
      t_get k (flat_l l) = Some v -> match d with O => None | S d' => get_l d' k l end = Some v).
Proof.
  apply (@mt_ml_ind V).
  - intros l IHl d k v. rewrite lv_MEnd, get_MEnd, flat_MEnd. apply IHl.
  - intros l IHl k1 v1 r IHr d k v Dk Hw. rewrite lv_MCons, get_MCons. rewrite flat_MCons in Hw |- *.
    intros (Hk1 & Hl & Hr) Hlc. rewrite (get_pivot k _ _ _ _ Dk Hw).
    destruct (wf_MCons_inv _ _ _ _ Hw) as (Wl & Wr & _).
    apply LC_app in Hlc. destruct Hlc as [Hlc1 Hlc2].
    destruct (order_t k k1) eqn:E.
    + (* an equal key above the key's own level would have another layer, against [LC] *)
      pose proof (Forall_inv Hlc2 E) as Hlck. cbn [fst] in Hlck. destruct d; [exact (fun x => x)|lia].
    + exact (IHl d k v Dk Wl Hl Hlc1).
    + exact (IHr d k v Dk Wr Hr (Forall_inv_tail Hlc2)).
  - intros d k v _ _ _ _. rewrite flat_LNil. discriminate.
  - intros n IHn d k v Dk Hw Hl Hlc Hg.
    (* an entry found below a link has a lower layer than the level of the node that holds the link *)
    pose proof (get_some_lay _ _ _ _ Hlc (proj1 (proj2 lv_bounds _ _ Hl)) Hg).
    destruct d as [|d]; [lia|]. rewrite Nat.add_succ_r, lv_LNode_S in Hl. rewrite get_LNode. exact (IHn d k v Dk Hw Hl Hlc Hg).
Qed.

End Levels.

(* the root of a tree of height h is an inner node of level h for the layer function capped at h
   (mast: min(layer, height)): what holds of inner nodes for every layer function holds of roots *)
Section Cap.
Context {V : Type}.
Notation mt := (mt V).
Notation ml := (ml V).
Variable lay : sval -> nat.

Definition cap (H : nat) (k : sval) : nat := Nat.min (lay k) H.

Lemma cap_lv H :
  (forall (n : mt) h, h < H -> (lv (cap H) h n <-> lv lay h n)) /\
  (forall (l : ml) h, h <= H -> (lv_l (cap H) h l <-> lv_l lay h l)).
Proof.
  apply (@mt_ml_ind V).
  - intros l IHl h Hh. rewrite !lv_MEnd. apply IHl. lia.
  - intros l IHl k v r IHr h Hh. rewrite !lv_MCons, (IHl h), (IHr h) by lia. unfold cap.
    split; intros (Hk & Hl & Hr); (split; [lia|split; assumption]).
  - intros h _. reflexivity.
  - intros n IHn [|h] Hh; [reflexivity|]. rewrite !lv_LNode_S. apply IHn. lia.
Qed.

Lemma lvr_cap h (n : mt) : lvr lay h n <-> lv (cap h) h n.
Proof.
  induction n as [l|l k v r IH]; [rewrite lv_MEnd|rewrite lv_MCons]; cbn [lvr];
    rewrite (proj2 (cap_lv h) l h (le_n h)); [reflexivity|]. rewrite IH. unfold cap.
  split; intros (Hk & Hl & Hr); (split; [lia|split; assumption]).
Qed.

(* the depth at which the handle starts a search is the distance from the root to the key's capped layer *)
Lemma cap_depth h k : cap h k + (h - Nat.min (lay k) h) = h.
Proof. unfold cap. lia. Qed.

Lemma LC_cap h k (t : tree V) : LC lay k t -> LC (cap h) k t.
Proof. apply Forall_impl. intros x Hx E. unfold cap. rewrite (Hx E). reflexivity. Qed.

Lemma lvr_depth (n : mt) h : lvr lay h n -> depth n <= h.
Proof. intros H. apply lvr_cap in H. exact (proj2 (proj1 (lv_bounds (cap h)) n h H)). Qed.

End Cap.

Section Root.
Context {V : Type}.
Notation mt := (mt V).
Variable lay : sval -> nat.
Notation lvr := (lvr lay).
Notation LC := (LC lay).

Lemma get_complete_root (n : mt) : forall h k v, D k -> wf (flat n) -> lvr h n -> LC k (flat n) ->
  t_get k (flat n) = Some v -> get (h - Nat.min (lay k) h) k n = Some v.
Proof.
  intros h k v Dk Hw Hn Hlc. apply (proj1 (get_complete_inner (cap lay h))); [exact Dk|exact Hw| |exact (LC_cap lay h k _ Hlc)].
  rewrite cap_depth. apply lvr_cap, Hn.
Qed.

End Root.
