(* MastDelProofs.v — what Delete does to the shape of the tree: node merging, Delete and shrink keep
   the level discipline and link no empty node; with MastInvProofs this makes `MInv` an invariant of
   EVERY history of Inserts and Deletes from a tree that meets it (the empty tree does): no Insert panics, the contents are the
   sorted list's, every lookup is the list's lookup. *)
From S3db Require Import Base KeyOrder Tree Mast.
From S3db.proofs Require Import TreeProofs MastProofs MastLevelProofs MastCursorProofs MastInvProofs.
Import ListNotations.
Local Open Scope nat_scope.

Section Del.
Context {V : Type}.
Notation mt := (mt V).
Notation ml := (ml V).
Variable lay : sval -> nat.
Notation lv := (lv lay).
Notation lv_l := (lv_l lay).
Notation lvr := (lvr lay).

Lemma merge_lv :
  (forall (a : mt) h b, lv h a -> lv h b -> lv h (merge_n a b)) /\
  (forall (la : ml) h lb, lv_l h la -> lv_l h lb -> lv_l h (merge_l la lb)).
Proof.
  apply (@mt_ml_ind V).
  - intros la IHl h b Ha Hb. rewrite lv_MEnd in Ha. destruct b as [lb|lb k v r].
    + rewrite merge_MEnd_MEnd, lv_MEnd. rewrite lv_MEnd in Hb. apply IHl; assumption.
    + rewrite merge_MEnd_MCons, lv_MCons. rewrite lv_MCons in Hb. destruct Hb as (Hk & Hl & Hr).
      repeat split; try assumption. apply IHl; assumption.
  - intros l _ k v r IHr h b Ha Hb. rewrite merge_MCons, lv_MCons. rewrite lv_MCons in Ha.
    destruct Ha as (Hk & Hl & Hr). repeat split; try assumption. apply IHr; assumption.
  - intros h lb _ Hb. rewrite merge_LNil. exact Hb.
  - intros a IHa h lb Ha Hb. destruct lb as [|b].
    + rewrite merge_LNode_LNil. exact Ha.
    + rewrite merge_LNode_LNode. destruct h as [|h']; [rewrite lv_LNode_O in Ha; contradiction|].
      rewrite lv_LNode_S in *. apply IHa; assumption.
Qed.

(* a linked node that is not empty stays so when another is merged into it *)
Lemma merge_ne :
  (forall (a : mt) b, ne a -> ne b -> ne (merge_n a b) /\ (is_empty a = false -> is_empty (merge_n a b) = false)) /\
  (forall (la : ml) lb, ne_l la -> ne_l lb -> ne_l (merge_l la lb)).
Proof.
  apply (@mt_ml_ind V).
  - intros la IHl b Ha Hb. rewrite ne_MEnd in Ha. destruct b as [lb|lb k v r].
    + rewrite merge_MEnd_MEnd, ne_MEnd. rewrite ne_MEnd in Hb. split; [apply IHl; assumption|].
      intros He. destruct la as [|x]; [discriminate|]. destruct lb; reflexivity.
    + rewrite merge_MEnd_MCons, ne_MCons. rewrite ne_MCons in Hb. destruct Hb as [Hlb Hr].
      split; [split; [apply IHl; assumption|exact Hr]|reflexivity].
  - intros l _ k v r IHr b Ha Hb. rewrite merge_MCons, ne_MCons. rewrite ne_MCons in Ha. destruct Ha as [Hl Hr].
    split; [split; [exact Hl|apply IHr; assumption]|reflexivity].
  - intros lb _ Hb. rewrite merge_LNil. exact Hb.
  - intros a IHa lb Ha Hb. destruct lb as [|b].
    + rewrite merge_LNode_LNil. exact Ha.
    + rewrite merge_LNode_LNode. rewrite ne_LNode in *. destruct Ha as [Hea Hna]. destruct Hb as [_ Hnb].
      destruct (IHa b Hna Hnb) as [Hm He]. split; [apply He; exact Hea|exact Hm].
Qed.

Lemma del_keeps :
  (forall (n : mt) d k, match del d k n with Some n' => keeps (lv (lay k + d)) ne n n' | None => True end) /\
  (forall (l : ml) d k,
      match del_l d k l with Some c => keeps (lv_l (S (lay k + d))) ne_l l (mk_link c) | None => True end).
Proof.
  apply (@mt_ml_ind V).
  - intros l IHl d k. rewrite del_MEnd. destruct d as [|d]; [exact I|].
    specialize (IHl d k). destruct (del_l d k l) as [c|]; [|exact I]. rewrite Nat.add_succ_r. exact IHl.
  - intros l IHl k1 v1 r IHr d k. rewrite del_MCons. destruct (order_t k k1).
    + destruct d; [|exact I].
      split; [rewrite lv_MCons; intros (_ & Hl & Hr); exact (proj1 merge_lv (MEnd l) _ r Hl Hr)|].
      rewrite ne_MCons. intros [Hl Hr]. exact (proj1 (proj1 merge_ne (MEnd l) r Hl Hr)).
    + destruct d as [|d]; [exact I|].
      specialize (IHl d k). destruct (del_l d k l) as [c|]; [|exact I].
      rewrite Nat.add_succ_r. apply keeps_MCons; [exact IHl|apply keeps_refl].
    + specialize (IHr d k). destruct (del d k r) as [r'|]; [|exact I].
      apply keeps_MCons; [apply keeps_refl|exact IHr].
  - intros d k. rewrite del_LNil. exact I.
  - intros n IHn d k. rewrite del_LNode. specialize (IHn d k). destruct (del d k n) as [c|]; [|exact I].
    exact (keeps_mk_link lay (S _) _ _ IHn).
Qed.

Lemma cat_lvr h (c : mt) k v rest : lv h c -> h <= lay k -> lvr h rest -> lvr h (cat c k v rest).
Proof.
  induction c as [l|l k1 v1 r IH]; intros Hc Hk Hrest; cbn [cat MastLevelProofs.lvr].
  - rewrite lv_MEnd in Hc. repeat split; assumption.
  - rewrite lv_MCons in Hc. destruct Hc as (Hk1 & Hl & Hr). repeat split; [lia|assumption|apply IH; assumption].
Qed.

Lemma shrink_lvr h (n : mt) : lvr (S h) n -> lvr h (shrink_node n).
Proof.
  induction n as [l|l k v r IH]; cbn [MastLevelProofs.lvr shrink_node].
  - intros Hl. apply lv_lvr. apply lv_node_of. exact Hl.
  - intros (Hk & Hl & Hr). destruct l as [|c].
    + cbn [MastLevelProofs.lvr]. split; [lia|]. split; [rewrite lv_LNil; trivial|apply IH; assumption].
    + rewrite lv_LNode_S in Hl. apply cat_lvr; [assumption|lia|apply IH; assumption].
Qed.

Lemma cat_ne (c : mt) k v rest : ne c -> ne rest -> ne (cat c k v rest).
Proof.
  induction c as [l|l k1 v1 r IH]; intros Hc Hr; cbn [cat].
  - rewrite ne_MEnd in Hc. rewrite ne_MCons. split; assumption.
  - rewrite ne_MCons in *. destruct Hc as [Hl Hr1]. split; [exact Hl|apply IH; assumption].
Qed.

Lemma shrink_ne (n : mt) : ne n -> ne (shrink_node n).
Proof.
  induction n as [l|l k v r IH]; cbn [shrink_node].
  - rewrite ne_MEnd. apply ne_node_of.
  - rewrite ne_MCons. intros [Hl Hr]. destruct l as [|c].
    + rewrite ne_MCons. split; [exact I|apply IH; exact Hr].
    + rewrite ne_LNode in Hl. apply cat_ne; [exact (proj2 Hl)|apply IH; exact Hr].
Qed.

End Del.

Lemma del_lvr {V : Type} (lay : sval -> nat) (n : mt V) h k n' : lvr lay h n ->
  del (h - Nat.min (lay k) h) k n = Some n' -> lvr lay h n'.
Proof.
  intros Hn Hd. pose proof (proj1 (del_keeps (cap lay h)) n (h - Nat.min (lay k) h) k) as H. rewrite Hd in H.
  destruct H as [H _]. rewrite cap_depth in H. apply lvr_cap, H, lvr_cap, Hn.
Qed.

Section Handle.
Context {V : Type}.
Variable bf : Z.
Variable P : sval -> Prop.
Notation lay := (klayer bf).
Hypothesis P_layers : forall a b, P a -> P b -> order_t a b = Eq -> lay a = lay b.
Hypothesis P_safe : forall a, P a -> D a.
Notation MInv := (MInv (V := V) bf P).

Theorem mast_delete_keeps_invariant (m m' : mast V) k : MInv m -> P k ->
  mast_delete m k = Some m' ->
  MInv m' /\ mast_flat m' = t_delete k (mast_flat m).
Proof.
  intros (Hw & Hp & Hl & Hb) Hk Hd. pose proof (P_safe k Hk) as Dk.
  destruct (mast_delete_refines m m' k Dk Hw Hd) as (Hf & Hw' & _).
  split; [|assumption].
  destruct (mast_delete_keeps (lvr lay) m m' k) as (n' & E & H); [apply shrink_lvr|exact Hd|].
  rewrite Hb in E. destruct (H (del_lvr lay _ _ _ _ Hl E)) as (HQ & Hb' & _).
  split; [assumption|]. split; [rewrite Hf; apply delete_Forall; assumption|]. split; [exact HQ|congruence].
Qed.

Inductive mop : Type := MIns (k : sval) (v : V) | MDel (k : sval).
Definition mop_key (o : mop) : sval := match o with MIns k _ => k | MDel k => k end.

(* a Delete of an absent key is an error that leaves the tree as it was *)
Fixpoint run_mops (m : mast V) (ops : list mop) : option (mast V) :=
  match ops with
  | [] => Some m
  | MIns k v :: ops' => match mast_insert m k v with Some m' => run_mops m' ops' | None => None end
  | MDel k :: ops' => match mast_delete m k with Some m' => run_mops m' ops' | None => run_mops m ops' end
  end.

Definition list_step (t : tree V) (o : mop) : tree V :=
  match o with MIns k v => t_insert k v t | MDel k => t_delete k t end.

(* a refused Delete: the key is absent (lookups are complete), so the list does not change either *)
Lemma mast_delete_refused (m : mast V) k : MInv m -> P k -> mast_delete m k = None ->
  t_delete k (mast_flat m) = mast_flat m.
Proof.
  intros Hm Hk Hd. apply delete_absent_id.
  rewrite <- (mast_get_is_list_get bf P P_layers P_safe m k Hm Hk). destruct Hm as (Hw & _).
  exact (mast_delete_none m k (P_safe k Hk) Hw Hd).
Qed.

(* an invariant (at least MInv) that Insert and Delete keep holds along every history, no Insert
   panics, and the contents follow the list *)
Lemma run_mops_keeps (I : mast V -> Prop) :
  (forall m, I m -> MInv m) ->
  (forall m k v, I m -> P k -> exists m', mast_insert m k v = Some m' /\ I m' /\
                                         mast_flat m' = t_insert k v (mast_flat m)) ->
  (forall m m' k, I m -> P k -> mast_delete m k = Some m' -> I m' /\ mast_flat m' = t_delete k (mast_flat m)) ->
  forall (ops : list mop) m, I m -> Forall (fun o => P (mop_key o)) ops ->
  exists m', run_mops m ops = Some m' /\ I m' /\ mast_flat m' = fold_left list_step ops (mast_flat m).
Proof.
  intros HI Hins Hdel. induction ops as [|o ops IH]; intros m Hm Hops; cbn [run_mops fold_left].
  - exists m. auto.
  - pose proof (Forall_inv Hops) as Hk. pose proof (Forall_inv_tail Hops) as Hops'.
    destruct o as [k v|k]; cbn [mop_key list_step] in *.
    + destruct (Hins m k v Hm Hk) as (m1 & -> & Hm1 & <-). auto.
    + destruct (mast_delete m k) as [m1|] eqn:E.
      * destruct (Hdel m m1 k Hm Hk E) as (Hm1 & <-). auto.
      * rewrite (mast_delete_refused m k (HI m Hm) Hk E). auto.
Qed.

Theorem histories_never_panic_and_refine (ops : list mop) : forall m, MInv m ->
  Forall (fun o => P (mop_key o)) ops ->
  exists m', run_mops m ops = Some m' /\ MInv m' /\
    mast_flat m' = fold_left list_step ops (mast_flat m) /\
    forall k, P k -> mast_get m' k = t_get k (mast_flat m').
Proof.
  intros m Hm Hops.
  destruct (run_mops_keeps MInv (fun _ H => H) (mast_insert_keeps_invariant bf P P_layers P_safe)
              mast_delete_keeps_invariant ops m Hm Hops) as (m' & Hr & Hm' & Hf).
  exists m'. split; [exact Hr|]. split; [exact Hm'|]. split; [exact Hf|].
  intros k Hk. apply (mast_get_is_list_get bf P P_layers P_safe); assumption.
Qed.

End Handle.
