(* MergeAllProofs.v — folding a list of versions (trees) with merge_into gives, per key, the
   fold of the value join over the values present in the versions; with a selector join this
   is the value of least rank among them.  So the merged rows depend only on which values the
   versions hold at each key: not on the order of the versions, not on repetitions, and not on
   versions that others cover. *)
From S3db Require Import Base RowMerge Tree.
From S3db.proofs Require Import Selector TreeProofs.
Import ListNotations.
Open Scope Z_scope.

Section MergeAll.
Context {V : Type}.
Variable f : cval V -> cval V -> option (cval V).
Variable g : cval V -> cval V -> cval V.
Variable veq : cval V -> cval V -> bool.
Variable S : cval V -> Prop.
Hypothesis f_total : forall x y, S x -> S y -> f x y = Some (g x y).
Variable rk : cval V -> Z * Z.
Hypothesis g_sel : forall a b, S a -> S b -> g a b = a \/ g a b = b.
Hypothesis g_min : forall a b, S a -> S b -> rle (rk (g a b)) (rk a) /\ rle (rk (g a b)) (rk b).
Hypothesis S_compat : forall a b, S a -> S b -> rk a = rk b -> a = b.
Hypothesis veq_eq : forall a b, veq a b = true -> a = b.

(* the trees of the versions merged one after the other into [acc], as mergeRoots does *)
Fixpoint merge_list (acc : tree (cval V)) (gs : list (tree (cval V))) : option (tree (cval V)) :=
  match gs with
  | [] => Some acc
  | gr :: gs' => match merge_into f veq acc gr with
                 | Some t => merge_list t gs'
                 | None => None
                 end
  end.

Notation vals_S := (vals_in S).

Theorem merge_list_pointwise gs : forall acc,
  wf acc -> vals_S acc -> Forall (fun t => wf t /\ vals_S t) gs ->
  exists t', merge_list acc gs = Some t' /\ wf t' /\ vals_S t' /\
             forall k, D k -> t_get k t' = fold_left (join_opt g veq) (map (t_get k) gs) (t_get k acc).
Proof.
  induction gs as [|gr gs IH]; intros acc Hacc Vacc Hgs.
  - exists acc. repeat split; auto.
  - destruct (Forall_inv Hgs) as [Hgr Vgr]. apply Forall_inv_tail in Hgs as Hgs'. cbn [merge_list].
    destruct (merge_into_pointwise f g veq S f_total (f_P _ S g g_sel) gr acc Hacc Hgr Vacc Vgr) as (t1 & Hm & Hwf1 & V1 & Hget1).
    rewrite Hm.
    destruct (IH t1 Hwf1 V1 Hgs') as (t' & Hml & Hwf' & V' & Hget').
    exists t'. repeat split; auto.
    intros k Hk. rewrite (Hget' k Hk), (Hget1 k Hk). reflexivity.
Qed.

Definition present (l : list (option (cval V))) : list (cval V) :=
  flat_map (fun o => match o with Some x => [x] | None => [] end) l.

Definition opt_S (o : option (cval V)) : Prop := match o with Some x => S x | None => True end.

Lemma join_opt_g a b : S a -> S b -> join_opt g veq (Some a) (Some b) = Some (g a b).
Proof.
  intros Sa Sb. cbn. destruct (veq a b) eqn:E; [|reflexivity].
  apply veq_eq in E. subst. rewrite (f_idem _ S g g_sel) by assumption. reflexivity.
Qed.

Lemma present_S l : Forall opt_S l -> Forall S (present l).
Proof.
  induction 1 as [|o l Ho Hl IH]; cbn; [constructor|].
  destruct o; cbn; [constructor; assumption | assumption].
Qed.

(* o is the value of least rank in l, if l has any *)
Definition least (l : list (cval V)) (o : option (cval V)) : Prop :=
  match o with Some r => is_min _ rk l r | None => l = [] end.

Lemma least_one o : least (present [o]) o.
Proof. destruct o; [apply is_min_one|reflexivity]. Qed.

(* the join of two least values is the least value of the union *)
Lemma join_least l1 l2 o1 o2 : Forall S l1 -> Forall S l2 ->
  least l1 o1 -> least l2 o2 -> least (l1 ++ l2) (join_opt g veq o1 o2).
Proof.
  intros S1 S2. destruct o1 as [r1|], o2 as [r2|]; cbn [least].
  - intros M1 M2. rewrite join_opt_g; [|exact (is_min_P _ S rk l1 r1 S1 M1)|exact (is_min_P _ S rk l2 r2 S2 M2)].
    apply (f_is_min _ S rk g g_sel g_min); assumption.
  - intros M1 ->. rewrite app_nil_r. exact M1.
  - intros -> M2. exact M2.
  - intros -> ->. reflexivity.
Qed.

Lemma fold_present_least (l : list (option (cval V))) : forall a,
  Forall opt_S (a :: l) -> least (present (a :: l)) (fold_left (join_opt g veq) l a).
Proof.
  induction l as [|o l IH] using rev_ind; intros a H; [apply least_one|].
  rewrite app_comm_cons in H. apply Forall_app in H as [Hl Ho].
  rewrite fold_left_app, app_comm_cons. unfold present. rewrite flat_map_app.
  apply join_least; [apply present_S, Hl | apply present_S, Ho | apply IH, Hl | apply least_one].
Qed.

(* a sublist that holds, for every value, one of at most its rank has the same least value *)
Lemma least_sub (l l' : list (cval V)) o o' :
  pairwise_compat _ rk l ->
  (forall x, In x l' -> In x l) ->
  (forall x, In x l -> exists y, In y l' /\ rle (rk y) (rk x)) ->
  least l o -> least l' o' -> o = o'.
Proof.
  intros HC Hsub Hcov. destruct o as [r|], o' as [r'|]; cbn [least].
  - intros [Hi Hm] [Hi' Hm']. f_equal.
    apply HC; [exact Hi | apply Hsub; exact Hi' |].
    apply rle_antisym; [apply Hm, Hsub; exact Hi'|].
    destruct (Hcov r Hi) as (y & Hy & Hle). eapply rle_trans; [apply Hm'; exact Hy | exact Hle].
  - intros [Hi _] E. destruct (Hcov r Hi) as (y & Hy & _). rewrite E in Hy. destruct Hy.
  - intros E [Hi _]. apply Hsub in Hi. rewrite E in Hi. destruct Hi.
  - reflexivity.
Qed.

Lemma in_present_map k (L : list (tree (cval V))) x :
  In x (present (map (t_get k) L)) <-> exists t, In t L /\ t_get k t = Some x.
Proof.
  unfold present. rewrite in_flat_map. split.
  - intros (o & Ho & Hx). apply in_map_iff in Ho. destruct Ho as (t & <- & Hin). exists t. split; [exact Hin|].
    destruct (t_get k t); [destruct Hx as [<-|[]]; reflexivity | destruct Hx].
  - intros (t & Hin & Hg). exists (Some x). split; [rewrite <- Hg; apply in_map; exact Hin | left; reflexivity].
Qed.

Lemma lookups_opt_S k (L : list (tree (cval V))) :
  Forall (fun t => wf t /\ vals_S t) L -> Forall opt_S (map (t_get k) L).
Proof.
  induction 1 as [|t L [Hw Hv] HL IH]; cbn; constructor; [exact (get_vals_opt S k t Hv)|exact IH].
Qed.

Notation good := (fun t => wf t /\ vals_S t).

(* per key, the merged tree holds the value of least rank among those the versions hold *)
Theorem merge_list_min acc gs :
  Forall good (acc :: gs) ->
  exists t', merge_list acc gs = Some t' /\ wf t' /\ vals_S t' /\
    forall k, D k -> least (present (map (t_get k) (acc :: gs))) (t_get k t').
Proof.
  intros H. destruct (Forall_inv H) as [Wa Va].
  destruct (merge_list_pointwise gs acc Wa Va (Forall_inv_tail H)) as (t' & M & W & V' & G).
  exists t'. repeat split; auto. intros k Hk. rewrite (G k Hk).
  exact (fold_present_least _ _ (lookups_opt_S k (acc :: gs) H)).
Qed.

(* versions that the remaining ones cover can be left out: wherever a dropped version has an
   entry, a remaining one has an entry of at most its rank.  Only values that meet at one key
   have to be compatible *)
Theorem merge_covered_keywise acc gs acc' gs' :
  (forall k t t' a b, D k -> In t (acc :: gs) -> In t' (acc :: gs) ->
     t_get k t = Some a -> t_get k t' = Some b -> rk a = rk b -> a = b) ->
  Forall good (acc :: gs) -> Forall good (acc' :: gs') ->
  (forall t, In t (acc' :: gs') -> In t (acc :: gs)) ->
  (forall t, In t (acc :: gs) -> exists t', In t' (acc' :: gs') /\
     forall k x, D k -> t_get k t = Some x -> exists y, t_get k t' = Some y /\ rle (rk y) (rk x)) ->
  exists t1 t2, merge_list acc gs = Some t1 /\ merge_list acc' gs' = Some t2 /\
                wf t1 /\ wf t2 /\ forall k, D k -> t_get k t1 = t_get k t2.
Proof.
  intros HC H1 H2 Hsub Hcov.
  destruct (merge_list_min acc gs H1) as (t1 & M1 & W1 & _ & B1).
  destruct (merge_list_min acc' gs' H2) as (t2 & M2 & W2 & _ & B2).
  exists t1, t2. repeat split; auto. intros k Hk.
  refine (least_sub _ _ _ _ _ _ _ (B1 k Hk) (B2 k Hk)).
  - intros a b Ha Hb. apply in_present_map in Ha, Hb. destruct Ha as (t & Ht & Ga), Hb as (t' & Ht' & Gb).
    exact (HC k t t' a b Hk Ht Ht' Ga Gb).
  - intros x Hx. apply in_present_map in Hx. destruct Hx as (t & Hin & Hg). apply in_present_map. exists t. auto.
  - intros x Hx. apply in_present_map in Hx. destruct Hx as (t & Hin & Hg).
    destruct (Hcov t Hin) as (t' & Hin' & Hc). destruct (Hc k x Hk Hg) as (y & Hy & Hle).
    exists y. split; [|exact Hle]. apply in_present_map. exists t'. auto.
Qed.

Theorem merge_covered acc gs acc' gs' :
  Forall good (acc :: gs) -> Forall good (acc' :: gs') ->
  (forall t, In t (acc' :: gs') -> In t (acc :: gs)) ->
  (forall t, In t (acc :: gs) -> exists t', In t' (acc' :: gs') /\
     forall k x, D k -> t_get k t = Some x -> exists y, t_get k t' = Some y /\ rle (rk y) (rk x)) ->
  exists t1 t2, merge_list acc gs = Some t1 /\ merge_list acc' gs' = Some t2 /\
                wf t1 /\ wf t2 /\ forall k, D k -> t_get k t1 = t_get k t2.
Proof.
  intros H1. apply merge_covered_keywise; [|exact H1]. intros k t t' a b _ Ht Ht' Ga Gb.
  rewrite Forall_forall in H1.
  exact (S_compat a b (get_vals S k t a (proj2 (H1 t Ht)) Ga) (get_vals S k t' b (proj2 (H1 t' Ht')) Gb)).
Qed.

(* ORDER / REPETITION: the same SET of versions gives the same rows, whatever the order in
   which they are folded and however often a version occurs *)
Theorem merge_same_versions acc gs acc' gs' :
  Forall (fun t => wf t /\ vals_S t) (acc :: gs) ->
  Forall (fun t => wf t /\ vals_S t) (acc' :: gs') ->
  (forall t, In t (acc :: gs) <-> In t (acc' :: gs')) ->
  exists t1 t2, merge_list acc gs = Some t1 /\ merge_list acc' gs' = Some t2 /\
                wf t1 /\ wf t2 /\ forall k, D k -> t_get k t1 = t_get k t2.
Proof.
  intros H1 H2 Hset. apply merge_covered; auto.
  - intros t Hin. apply Hset. exact Hin.
  - intros t Hin. exists t. split; [apply Hset; exact Hin|].
    intros k x _ G. exists x. split; [exact G|apply rle_refl].
Qed.

End MergeAll.
