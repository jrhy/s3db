(* MastExamples.v — executed witnesses for the node-level tree: a three-level tree built by
   Insert from the empty tree meets the hypotheses of the refinement and level theorems
   (non-vacuity); Cursor.Backward as written in mast v1.2.33 is refuted on two small trees
   (finding F-C06-2 reproduced on the model: one walk ends in an error, one silently omits a row). *)
From S3db Require Import Base KeyOrder Tree Mast.
From S3db.proofs Require Import TreeProofs MastProofs MastLevelProofs.
Import ListNotations.
Open Scope Z_scope.

Definition build (bf : Z) (ks : list Z) : option (mast Z) :=
  fold_left (fun om k => match om with Some m => mast_insert m (VInt k) k | None => None end)
            ks (Some (mast_empty bf)).

Definition walk_back (m : mast Z) : list (sval * Z) * wstatus :=
  c_walk_bwd 50 50 (c_max 50 (mast_cursor m)).
Definition walk_fwd (m : mast Z) : list (sval * Z) :=
  c_walk_fwd 50 50 (c_min 50 (mast_cursor m)).

Lemma wf_ints (l : list Z) : t_sorted (map (fun k => (VInt k, k)) l) = true ->
  Forall (fun k => safe_key (VInt k) = true) l -> True.
Proof. trivial. Qed.

(* keys 1..8 with branch factor 2: height 2, 4 and 8 in the root, 2 and 6 below, odd keys in leaves *)
Example three_levels :
  exists m, build 2 [1; 2; 3; 4; 5; 6; 7; 8] = Some m /\
    m_height m = 2%nat /\ m_size m = 8 /\
    mast_flat m = map (fun k => (VInt k, k)) [1; 2; 3; 4; 5; 6; 7; 8] /\
    wf (mast_flat m) /\
    lvr (klayer 2) (m_height m) (node_of (m_root m)) /\
    walk_fwd m = mast_flat m /\
    mast_get m (VInt 5) = Some 5 /\ mast_get m (VInt 9) = None.
Proof.
  (* one evaluation of everything said about the tree built: what is left are equations between literals, the
     sortedness of the literal list and the level facts as inequalities between numerals *)
  eexists. split; [vm_compute; reflexivity|]. vm_compute.
  repeat split; repeat constructor.
Qed.

(* a descending walk that ends in an error: keys 1 2 4 5, branch factor 2 *)
Example backward_errors :
  exists m, build 2 [1; 2; 4; 5] = Some m /\
    mast_flat m = map (fun k => (VInt k, k)) [1; 2; 4; 5] /\
    walk_back m = ([(VInt 5, 5); (VInt 4, 4)], WErr).
Proof. eexists. split; [vm_compute; reflexivity|]. split; vm_compute; reflexivity. Qed.

(* a descending walk that silently omits a row: keys 4 5 6, branch factor 2 *)
Example backward_omits :
  exists m, build 2 [4; 5; 6] = Some m /\
    mast_flat m = map (fun k => (VInt k, k)) [4; 5; 6] /\
    walk_back m = ([(VInt 6, 6); (VInt 4, 4)], WOk).
Proof. eexists. split; [vm_compute; reflexivity|]. split; vm_compute; reflexivity. Qed.

Theorem backward_scan_refuted :
  exists m : mast Z, wf (mast_flat m) /\ snd (walk_back m) = WOk /\ fst (walk_back m) <> rev (mast_flat m).
Proof.
  destruct backward_omits as (m & Hb & Hf & Hw). exists m. rewrite Hf, Hw. split.
  - repeat constructor.
  - split; [reflexivity|]. cbn. discriminate.
Qed.

(* a key that Key.Order equates with an entry of the root and whose layer lies below the height is looked for
   further down: Get meets the equal key above the level it searches on and answers "absent", Insert panics there *)
Lemma twin_of_root_key {V} (m : mast V) l k1 v1 r x v :
  m_root m = LNode (MCons l k1 v1 r) -> order_t x k1 = Eq -> (klayer (m_bf m) x < m_height m)%nat ->
  mast_get m x = None /\ mast_insert m x v = None.
Proof.
  intros R E L. unfold mast_get, mast_insert. rewrite R. cbn [node_of]. rewrite get_MCons, ins_MCons, E.
  destruct (m_height m - Nat.min (klayer (m_bf m) x) (m_height m))%nat eqn:Ed; [lia|]. split; reflexivity.
Qed.

(* numerically equal INTEGER / REAL keys have different layers: the lookup misses the stored twin and
   the Insert that follows panics (finding F-C07-2 on the model) — REAL 2.0 = 0x4000000000000000.
   [twin_of_root_key] gives the reason; what is evaluated is the tree, the order of the twins and
   the layer of the REAL key. *)
Example twin_key_panics :
  exists m, build 2 [1; 2; 3] = Some m /\
    order_t (VReal 4611686018427387904) (VInt 2) = Eq /\
    mast_get m (VReal 4611686018427387904) = None /\
    mast_insert m (VReal 4611686018427387904) 9 = None.
Proof.
  eexists. split; [vm_compute; reflexivity|].
  assert (E : order_t (VReal 4611686018427387904) (VInt 2) = Eq) by (vm_compute; reflexivity).
  split; [exact E|]. eapply twin_of_root_key; [reflexivity|exact E|vm_compute; constructor].
Qed.
