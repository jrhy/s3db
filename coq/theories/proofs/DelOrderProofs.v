(* DelOrderProofs.v — the order in which history deletion removes objects.
   [delete_historic] deletes the node objects of the versions it reclaims BEFORE the version
   records that name them, and stops at the first DELETE that fails.  Hence, for every fault plan
   and crash point (C10): when a version record is asked to be deleted, every node deletion of the
   run has already been issued and has succeeded, and a run in which a node deletion fails asks for
   no version record to be deleted.  The statements speak of the kinds of the requests in the trace,
   not of which record names which node. *)
From S3db Require Import Base Tree Store KvProto.
From S3db.proofs Require Import ProtoProofs ExecProofs.
Import ListNotations.
Open Scope Z_scope.

Section DelOrder.
Context {V : Type}.
Variable c : cfg (V := V).

Definition is_ndel (r : req V) : bool := match r with RDel PNode _ => true | _ => false end.
Definition is_vdel (r : req V) : bool := match r with RDel PNode _ => false | RDel _ _ => true | _ => false end.

Inductive all_req (P : req V -> bool) {A} : Store.prog V A -> Prop :=
| ar_ret a : all_req P (Ret a)
| ar_fail e : all_req P (Fail e)
| ar_do r k : P r = true -> (forall x, all_req P (k x)) -> all_req P (Do r k).

Lemma all_bind P {A B} (p : Store.prog V A) (f : A -> Store.prog V B) :
  all_req P p -> (forall a, all_req P (f a)) -> all_req P (bind p f).
Proof.
  intros Hp Hf. induction Hp as [a|e|r k Hr Hk IH]; cbn [bind]; [apply Hf|constructor|constructor; auto].
Qed.

Lemma nm_all P {A} (p : Store.prog V A) :
  (forall r, is_mut r = false -> P r = true) -> no_mut p -> all_req P p.
Proof. intros HP. induction 1 as [a|e|r k Hr Hk IH]; constructor; auto. Qed.

Definition not_del (r : req V) : bool := negb (is_ndel r) && negb (is_vdel r).
Definition not_ndel (r : req V) : bool := negb (is_ndel r).

(* the shape of a history deletion: reads; then node deletions, each of which must answer ROk for
   the program to go on to anything that deletes; then no node deletion any more *)
Inductive phased {A} : Store.prog V A -> Prop :=
| pd_ret a : phased (Ret a)
| pd_fail e : phased (Fail e)
| pd_other r k : not_del r = true -> (forall x, phased (k x)) -> phased (Do r k)
| pd_ndel r k : is_ndel r = true -> phased (k ROk) -> (forall x, x <> ROk -> all_req not_del (k x)) -> phased (Do r k)
| pd_vdel r k : is_vdel r = true -> (forall x, all_req not_ndel (k x)) -> phased (Do r k).

Lemma all_weaken (P Q : req V -> bool) {A} (p : Store.prog V A) :
  (forall r, P r = true -> Q r = true) -> all_req P p -> all_req Q p.
Proof. intros H. induction 1 as [a|e|r k Hr Hk IH]; constructor; auto. Qed.

Lemma not_del_not_ndel r : not_del r = true -> not_ndel r = true.
Proof. unfold not_del, not_ndel. intros H. apply andb_prop in H. tauto. Qed.

(* p deletes nothing, f continues *)
Lemma phased_bind_ro {A B} (p : Store.prog V A) (f : A -> Store.prog V B) :
  all_req not_del p -> (forall a, phased (f a)) -> phased (bind p f).
Proof.
  intros Hp Hf. induction Hp as [a|e|r k Hr Hk IH]; cbn [bind]; [apply Hf|constructor|apply pd_other; auto].
Qed.

Lemma nm_not_del r : is_mut r = false -> not_del r = true.
Proof. destruct r as [p|p n|p n o|p n|o]; cbn; try reflexivity; discriminate. Qed.

Lemma del_all_not_ndel p l : p <> PNode -> all_req not_ndel (del_all p l).
Proof.
  intros Hp. induction l as [|n l IH]; cbn [del_all]; [constructor|].
  constructor; [destruct p; cbn; congruence|]. intros x; destruct x; try constructor. exact IH.
Qed.

Lemma vdel_phased {A} (p : Store.prog V A) : all_req not_ndel p -> phased p.
Proof.
  induction 1 as [a|e|r k Hr Hk IH]; [constructor|constructor|].
  destruct (is_vdel r) eqn:Ev.
  - apply pd_vdel; [exact Ev|exact Hk].
  - apply pd_other; [unfold not_del; rewrite Ev; unfold not_ndel in Hr; rewrite Hr; reflexivity|exact IH].
Qed.

Lemma all_phased {A} (p : Store.prog V A) : all_req not_del p -> phased p.
Proof. intros H. exact (vdel_phased p (all_weaken _ _ p not_del_not_ndel H)). Qed.

(* node deletions, then a continuation that never deletes a node *)
Lemma del_nodes_then {B} l (f : unit -> Store.prog V B) :
  (forall a, all_req not_ndel (f a)) -> phased (bind (del_all PNode l) f).
Proof.
  intros Hf. induction l as [|n l IH]; cbn [del_all bind]; [apply vdel_phased, Hf|].
  apply pd_ndel; [reflexivity|exact IH|]. intros x Hx. destruct x; try congruence; cbn [bind]; constructor.
Qed.

Theorem delete_historic_phased h before : phased (delete_historic c h before).
Proof.
  (* no step needs the fuel, a numeral of 1000 constructors that every step would carry *)
  unfold delete_historic. generalize 1000%nat. intros fuel. apply if_both; [constructor|].
  apply phased_bind_ro; [apply (nm_all _ _ nm_not_del), load_graph_nm|]. intros g.
  apply phased_bind_ro.
  { apply (nm_all _ _ nm_not_del), no_mut_bind; [apply cand_blocks_nm|]. intros b0. apply keep_reachable_nm. }
  intros blocks. apply del_nodes_then. intros _.
  apply all_bind; [apply del_all_not_ndel; discriminate|]. intros _.
  destruct (h_source h) as [s|]; [|constructor].
  destruct (negb (kv_is_dirty h) && (t_size (h_tree h) =? 0)); [|constructor].
  constructor; [reflexivity|]. intros x. destruct x as [| |o| | |]; try constructor.
  destruct o as [t|v]; try constructor. destruct (v_created v) as [cr|]; [|constructor].
  destruct (cr <? before); [|constructor].
  constructor; [reflexivity|]. intros x. destruct x; constructor.
Qed.

(* traces are newest first *)
Definition ndel_in (l : list (req V * bool)) : Prop := exists r ok, In (r, ok) l /\ is_ndel r = true.
Definition vdel_in (l : list (req V * bool)) : Prop := exists r ok, In (r, ok) l /\ is_vdel r = true.
Definition ndels_ok (l : list (req V * bool)) : Prop := forall r ok, In (r, ok) l -> is_ndel r = true -> ok = true.

(* at every deletion of a version record all earlier node deletions have succeeded, and no node
   deletion comes after a deletion of a version record *)
Definition good (tr : list (req V * bool)) : Prop :=
  forall later r ok earlier, tr = later ++ (r, ok) :: earlier -> is_vdel r = true ->
    ~ ndel_in later /\ ndels_ok earlier.

Lemma good_cons r ok tr :
  (is_vdel r = true -> ndels_ok tr) -> (is_ndel r = true -> ~ vdel_in tr) -> good tr -> good ((r, ok) :: tr).
Proof.
  intros Hv Hn G later r1 ok1 earlier E V1. destruct later as [|x later]; cbn [app] in E.
  - (* the new entry is that record deletion *)
    injection E as <- <- <-. split; [intros (x & okx & [] & _)|exact (Hv V1)].
  - (* the new entry comes after that record deletion: it is no node deletion *)
    injection E as <- ->. destruct (G later r1 ok1 earlier eq_refl V1) as [N O]. split; [|exact O].
    intros (x & okx & [Hx|Hx] & Hd); [|apply N; exists x, okx; split; assumption].
    injection Hx as <- <-. apply (Hn Hd). exists r1, ok1. split; [apply in_or_app; right; left; reflexivity|exact V1].
Qed.

Lemma vdel_cons r ok tr : is_vdel r = false -> ~ vdel_in tr -> ~ vdel_in ((r, ok) :: tr).
Proof.
  intros Hr H (x & okx & [Hx|Hx] & Hd); [inversion Hx; subst; congruence|]. apply H. exists x, okx. tauto.
Qed.

Lemma ndels_ok_cons r ok tr : (is_ndel r = true -> ok = true) -> ndels_ok tr -> ndels_ok ((r, ok) :: tr).
Proof. intros Hr H x okx [Hx|Hx] Hd; [inversion Hx; subst; auto|eapply H; eauto]. Qed.

(* while no version record has been deleted the order is not at stake *)
Lemma no_vdel_good tr : ~ vdel_in tr -> good tr.
Proof.
  intros N later r ok earlier -> Hv. destruct N. exists r, ok. split; [apply in_or_app; right; left; reflexivity|exact Hv].
Qed.

Lemma not_del_parts r : not_del r = true -> is_ndel r = false /\ is_vdel r = false.
Proof. unfold not_del. intros H. apply andb_prop in H. destruct H as [A B]. apply negb_true_iff in A, B. tauto. Qed.

Variable oeq : obj V -> obj V -> bool.
Variable plan : list fault.
Variable crash : option Z.

(* the deletion phase a run is in: no version record deleted yet and every node deletion succeeded;
   a node deletion has failed (nothing is deleted from here on); a version record has been deleted
   after node deletions that all succeeded (no node deletion may follow) *)
Definition phase {A} (tr : list (req V * bool)) (p : Store.prog V A) : Prop :=
  phased p /\ ~ vdel_in tr /\ ndels_ok tr \/
  all_req not_del p /\ ~ vdel_in tr \/
  all_req not_ndel p /\ good tr /\ ndels_ok tr.

Lemma phase_good {A} tr (p : Store.prog V A) : phase tr p -> good tr.
Proof. intros [(_ & N & _)|[[_ N]|(_ & G & _)]]; [apply no_vdel_good, N|apply no_vdel_good, N|exact G]. Qed.

Lemma phase_step {A} b tr rq (k : resp V -> Store.prog V A) ok rs :
  answered oeq plan b tr rq ok rs ->
  phase tr (Do rq k) -> phase (if is_hash rq then tr else (rq, ok) :: tr) (k rs).
Proof.
  intros Ha [(Hp & N & O)|[[Hp N]|(Hp & G & O)]].
  - inversion Hp as [| |? ? Hr Hk|? ? Hr Hk1 Hk2|? ? Hr Hk]; subst.
    + (* neither kind of deletion *)
      destruct (is_hash rq); [left; auto|]. destruct (not_del_parts rq Hr) as [A1 A2].
      left. split; [apply Hk|]. split; [apply vdel_cons; assumption|apply ndels_ok_cons; [congruence|exact O]].
    + (* a node deletion: the first phase goes on only if it succeeded *)
      destruct rq as [pf|pf nn|pf nn o|pf nn|o]; try discriminate. destruct pf; try discriminate.
      cbn [is_hash]. pose proof (vdel_cons (RDel PNode nn) ok tr eq_refl N) as N'.
      destruct ok.
      * destruct Ha as [-> _]. left. split; [exact Hk1|]. split; [exact N'|apply ndels_ok_cons; [reflexivity|exact O]].
      * right; left. split; [|exact N']. apply Hk2. destruct Ha as [_ [[_ ->]|[_ ->]]]; discriminate.
    + (* a version record: second phase from here on *)
      destruct rq as [pf|pf nn|pf nn o|pf nn|o]; try discriminate. cbn [is_hash].
      assert (Hn : is_ndel (RDel pf nn) = false) by (destruct pf; [discriminate|reflexivity|reflexivity]).
      right; right. split; [apply Hk|]. split.
      * apply good_cons; [intros _; exact O|congruence|exact (no_vdel_good tr N)].
      * apply ndels_ok_cons; [congruence|exact O].
  - inversion Hp as [| |? ? Hr Hk]; subst.
    right; left. split; [apply Hk|]. destruct (is_hash rq); [exact N|]. apply vdel_cons; [apply (not_del_parts rq Hr)|exact N].
  - inversion Hp as [| |? ? Hr Hk]; subst. unfold not_ndel in Hr. apply negb_true_iff in Hr.
    right; right. split; [apply Hk|]. destruct (is_hash rq); [split; assumption|]. split.
    + apply good_cons; [intros _; exact O|congruence|exact G].
    + apply ndels_ok_cons; [congruence|exact O].
Qed.

(* for every fault plan, crash point and starting bucket: in the request trace of a history
   deletion (newest first), when a version record is asked to be deleted no node deletion follows
   and every node deletion before it has succeeded *)
Theorem delete_historic_records_outlive_nodes fuel i muts b h before b' res tr' :
  run oeq fuel plan crash i muts b (delete_historic c h before) [] = (b', res, tr') ->
  forall later r ok earlier, tr' = later ++ (r, ok) :: earlier -> is_vdel r = true ->
    ~ ndel_in later /\ ndels_ok earlier.
Proof.
  intros E. destruct (run_reaches _ _ _ E) as (m' & p' & R & _).
  apply (reaches_inv oeq plan crash (fun _ => phase)) in R; [exact (phase_good _ _ R)| |].
  - intros b0 tr rq k ok rs. apply phase_step.
  - left. split; [apply delete_historic_phased|]. split; [intros (x & okx & [] & _)|intros x okx []].
Qed.

(* a node deletion that fails ends the run without any version record having been deleted *)
Theorem failed_node_deletion_keeps_the_records fuel i muts b h before b' res tr' n :
  run oeq fuel plan crash i muts b (delete_historic c h before) [] = (b', res, tr') ->
  In (RDel PNode n, false) tr' -> ~ vdel_in tr'.
Proof.
  intros E Hin (r & ok & Hr & Hv).
  destruct (in_split _ _ Hr) as (later & earlier & Es).
  destruct (delete_historic_records_outlive_nodes _ _ _ _ _ _ _ _ _ E later r ok earlier Es Hv) as [N O].
  rewrite Es in Hin. apply in_app_or in Hin. destruct Hin as [Hin|[Hin|Hin]].
  - apply N. exists (RDel PNode n), false. split; [exact Hin|reflexivity].
  - inversion Hin; subst. discriminate.
  - specialize (O _ _ Hin eq_refl). discriminate.
Qed.

End DelOrder.
