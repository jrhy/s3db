(* EqbProofs.v — the boolean equality tests of the model are sound: the answer true means equal
   arguments.  For bytes, values, rows and entries the converse is proved as well. *)
From S3db Require Import Base KeyOrder RowMerge Tree Store Inst.
From S3db.proofs Require Import KeyOrderProofs.
Import ListNotations.
Open Scope Z_scope.

Lemma bytes_eqb_eq a b : bytes_eqb a b = true -> a = b.
Proof. unfold bytes_eqb. destruct (bytes_cmp a b) eqn:E; try discriminate. intros _. apply bytes_cmp_eq. exact E. Qed.

Lemma bytes_eqb_refl a : bytes_eqb a a = true.
Proof. unfold bytes_eqb. rewrite bytes_cmp_refl. reflexivity. Qed.

Lemma Z_eqb_eq (x y : Z) : (x =? y) = true -> x = y.
Proof. apply Z.eqb_eq. Qed.

Lemma sval_eqb_eq a b : sval_eqb a b = true -> a = b.
Proof.
  destruct a, b; cbn; try discriminate; intros H; [reflexivity|f_equal..].
  1,2: apply Z_eqb_eq, H.
  all: apply bytes_eqb_eq, H.
Qed.

Lemma sval_eqb_refl a : sval_eqb a a = true.
Proof. destruct a; cbn; auto using Z.eqb_refl, bytes_eqb_refl. Qed.

Lemma option_eqb_eq {A} (eqb : A -> A -> bool) :
  (forall x y, eqb x y = true -> x = y) -> forall a b, option_eqb eqb a b = true -> a = b.
Proof. intros H [x|] [y|]; cbn; try discriminate; auto. intros E. f_equal. apply H. exact E. Qed.

Lemma list_eqb_eq {A} (eqb : A -> A -> bool) :
  (forall x y, eqb x y = true -> x = y) -> forall a b, list_eqb eqb a b = true -> a = b.
Proof.
  intros H a. induction a as [|x a IH]; intros [|y b]; cbn; try discriminate; auto.
  intros E. apply andb_true_iff in E. destruct E as [E1 E2]. f_equal; auto.
Qed.

Lemma colval_eqb_eq a b : colval_eqb a b = true -> a = b.
Proof.
  destruct a, b. unfold colval_eqb. cbn. intros E. apply andb_true_iff in E. destruct E as [E1 E2].
  apply Z.eqb_eq in E1. apply sval_eqb_eq in E2. subst. reflexivity.
Qed.

Lemma row_eqb_eq a b : row_eqb a b = true -> a = b.
Proof.
  destruct a as [d1 o1 c1], b as [d2 o2 c2]. unfold row_eqb. cbn. intros E.
  apply andb_true_iff in E. destruct E as [E E3]. apply andb_true_iff in E. destruct E as [E1 E2].
  apply Bool.eqb_prop in E1. apply Z.eqb_eq in E2.
  apply (list_eqb_eq _ (option_eqb_eq _ colval_eqb_eq)) in E3. subst. reflexivity.
Qed.

Lemma cval_eqb_eq {V} (peq : V -> V -> bool) :
  (forall x y, peq x y = true -> x = y) -> forall a b : cval V, cval_eqb peq a b = true -> a = b.
Proof.
  intros H [m1 t1 p1 v1] [m2 t2 p2 v2]. unfold cval_eqb. cbn. intros E.
  apply andb_true_iff in E. destruct E as [E E4]. apply andb_true_iff in E. destruct E as [E E3].
  apply andb_true_iff in E. destruct E as [E1 E2].
  apply Z.eqb_eq in E1, E2, E3. apply (option_eqb_eq _ H) in E4. subst. reflexivity.
Qed.

Lemma cval_row_eqb_eq (a b : cval row) : cval_eqb row_eqb a b = true -> a = b.
Proof. apply cval_eqb_eq. exact row_eqb_eq. Qed.

Lemma cval_Z_eqb_eq (a b : cval Z) : cval_eqb Z.eqb a b = true -> a = b.
Proof. apply cval_eqb_eq. exact Z_eqb_eq. Qed.

Lemma option_eqb_refl {A} (eqb : A -> A -> bool) : (forall x, eqb x x = true) -> forall a, option_eqb eqb a a = true.
Proof. intros H [x|]; cbn; auto. Qed.
Lemma list_eqb_refl {A} (eqb : A -> A -> bool) : (forall x, eqb x x = true) -> forall a, list_eqb eqb a a = true.
Proof. intros H a. induction a as [|x a IH]; cbn; auto. rewrite H, IH. reflexivity. Qed.
Lemma colval_eqb_refl a : colval_eqb a a = true.
Proof. unfold colval_eqb. rewrite Z.eqb_refl, sval_eqb_refl. reflexivity. Qed.
Lemma row_eqb_refl a : row_eqb a a = true.
Proof.
  unfold row_eqb. rewrite Bool.eqb_reflx, Z.eqb_refl.
  rewrite (list_eqb_refl _ (option_eqb_refl _ colval_eqb_refl)). reflexivity.
Qed.
Lemma cval_eqb_refl {V} (peq : V -> V -> bool) : (forall x, peq x x = true) -> forall a : cval V, cval_eqb peq a a = true.
Proof. intros H a. unfold cval_eqb. rewrite !Z.eqb_refl, (option_eqb_refl _ H). reflexivity. Qed.
Lemma cval_row_eqb_refl (a : cval row) : cval_eqb row_eqb a a = true.
Proof. apply cval_eqb_refl. exact row_eqb_refl. Qed.

(* the object equalities of the two configurations decide equality (content hashing is
   injective on the model's objects) *)
Lemma vobj_eqb_eq a b : vobj_eqb a b = true -> a = b.
Proof.
  destruct a as [l1 s1 bf1 c1 p1 m1], b as [l2 s2 bf2 c2 p2 m2]. unfold vobj_eqb. cbn. intros E.
  repeat (apply andb_true_iff in E; let E' := fresh "E" in destruct E as [E E']).
  apply (option_eqb_eq Z.eqb Z_eqb_eq) in E. apply (option_eqb_eq Z.eqb Z_eqb_eq) in E2.
  apply (list_eqb_eq Z.eqb Z_eqb_eq) in E1. apply Z_eqb_eq in E4, E3, E0.
  subst. reflexivity.
Qed.

Lemma tree_eqb_gen_eq {V} (peq : V -> V -> bool) :
  (forall x y, peq x y = true -> x = y) -> forall a b : tree (cval V), tree_eqb_gen peq a b = true -> a = b.
Proof.
  intros H. apply list_eqb_eq. intros [k1 v1] [k2 v2] E. cbn in E.
  apply andb_true_iff in E. destruct E as [E1 E2]. apply sval_eqb_eq in E1. apply (cval_eqb_eq _ H) in E2.
  subst. reflexivity.
Qed.

Lemma obj_eqb_gen_eq {V} (peq : V -> V -> bool) :
  (forall x y, peq x y = true -> x = y) -> forall a b : obj V, obj_eqb_gen peq a b = true -> a = b.
Proof.
  intros H [t|v] [t'|v']; cbn; try discriminate; intros E.
  - f_equal. exact (tree_eqb_gen_eq _ H _ _ E).
  - f_equal. exact (vobj_eqb_eq _ _ E).
Qed.

Lemma obj_eqb_rows_eq a b : obj_eqb_rows a b = true -> a = b.
Proof. apply obj_eqb_gen_eq. exact row_eqb_eq. Qed.
Lemma obj_eqb_plain_eq a b : obj_eqb_plain a b = true -> a = b.
Proof. apply obj_eqb_gen_eq. exact Z_eqb_eq. Qed.
