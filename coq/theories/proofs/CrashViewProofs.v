(* CrashViewProofs.v — C04 at the level of CONTENTS.  CommitProofs shows what a commit, cut at
   any point by a crash or by any storage-fault plan, leaves in the bucket; OpenProofs shows what
   a fault-free reader computes from a bucket; MergeAllProofs shows that the merge is a
   minimum-rank selection.  This file composes them: the reader of a bucket left by a cut commit
   computes either exactly the contents a reader computed before the commit began, or exactly
   the contents of the committing handle merged with the versions it had not merged — never a
   mixture; a failed commit leaves the former, an acknowledged commit the latter.
   The argument is about the SET of trees under current/ ([cur_trees]): two sets that differ only
   by trees which a remaining member covers ([same_view]) merge to the same rows, however they
   are listed ([views_agree], from [merge_covered]); after a cut commit the set is in that sense
   the old one, or the handle's tree with the trees of the versions it had not merged
   ([cut_commit_trees], from [commit_cut] and from "a name denotes the same content before and
   after", NamedProofs). *)
From S3db Require Import Base RowMerge Tree Store KvProto.
From S3db.proofs Require Import Selector TreeProofs MergeAllProofs ProtoProofs ExecProofs CommitProofs OpenProofs NamedProofs.
Import ListNotations.
Open Scope Z_scope.

Section Dom.
Context {V : Type}.
Variable rk : cval V -> Z * Z.
Notation ctree := (tree (cval V)).

(* the same lookups, for keys of the safe domain [D] of TreeProofs *)
Definition same_rows (t1 t2 : ctree) : Prop := forall k, D k -> t_get k t1 = t_get k t2.
(* [t'] covers [t]: wherever [t] has an entry, [t'] has one that wins against it or is it *)
Definition covers (t' t : ctree) : Prop :=
  forall k x, D k -> t_get k t = Some x -> exists y, t_get k t' = Some y /\ rle (rk y) (rk x).
End Dom.

Section CrashView.
Context {V : Type}.
Variable c : cfg (V := V).
Variable oeq : obj V -> obj V -> bool.
Hypothesis oeq_eq : forall a b, oeq a b = true -> a = b.
Variable S : cval V -> Prop.
Variable g : cval V -> cval V -> cval V.
Variable rk : cval V -> Z * Z.
Hypothesis f_total : forall x y, S x -> S y -> c_merge c x y = Some (g x y).
Hypothesis g_sel : forall a b, S a -> S b -> g a b = a \/ g a b = b.
Hypothesis g_min : forall a b, S a -> S b -> rle (rk (g a b)) (rk a) /\ rle (rk (g a b)) (rk b).
Hypothesis S_compat : forall a b, S a -> S b -> rk a = rk b -> a = b.
Hypothesis veq_eq : forall a b, c_veq c a b = true -> a = b.

Notation ctree := (tree (cval V)).

Definition trees_of (b : bucket V) (names : list name) (ts : list ctree) : Prop :=
  Forall2 (fun n t => tree_named b n = Some t) names ts.

Lemma trees_of_in b names ts : trees_of b names ts ->
  forall t, In t ts <-> exists n, In n names /\ tree_named b n = Some t.
Proof.
  induction 1 as [|n t names ts Hn F IH]; intros t0; cbn.
  - split; [intros []|intros (n & [] & _)].
  - rewrite IH. split.
    + intros [<-|(n' & Hin & Ht)]; [exists n; auto|exists n'; auto].
    + intros (n' & [<-|Hin] & Ht); [left; congruence|right; exists n'; auto].
Qed.

Lemma covers_refl (t : ctree) : covers rk t t.
Proof. intros k x _ Hx. exists x. split; [exact Hx|apply rle_refl]. Qed.

Lemma same_rows_sym (a b : ctree) : same_rows a b -> same_rows b a.
Proof. intros H k Hk. symmetry. apply H. exact Hk. Qed.

(* the contents a fault-free reader computes from the versions under current/ of [b] *)
Definition old_view (b : bucket V) (v : ctree) : Prop :=
  exists order ts, trees_of b (apply_order order (o_names (b_cur b))) ts /\ view_fold c ts = Some v.

(* the contents after the commit: the handle's tree merged with the versions it has not merged *)
Definition others (b : bucket V) (h : handle (V := V)) : list name :=
  filter (fun x => negb (mem x (map fst (h_merged h)))) (o_names (b_cur b)).
Definition new_view (b : bucket V) (h : handle (V := V)) (v : ctree) : Prop :=
  exists ts, trees_of b (others b h) ts /\ view_fold c (h_tree h :: ts) = Some v.

(* a handle that was opened from versions under current/ of [b] and then written to; the versions it
   merged are all still under current/ (so no handle that merged a version found under merged/) *)
Definition handle_ok (b : bucket V) (h : handle (V := V)) : Prop :=
  good_tree S (h_tree h) /\ h_mode h = c_mode c /\ h_bf h = c_bf c /\
  (forall k v, In (k, v) (h_merged h) -> o_get k (b_cur b) = Some (OVer v)) /\
  (forall k tk, In k (map fst (h_merged h)) -> tree_named b k = Some tk -> covers rk (h_tree h) tk) /\
  (h_dirty h = false ->
     match h_link h with Some l => node_at b l = Some (h_tree h) | None => h_tree h = [] end).

(* [ts] lists the set [P] of trees, all of them good *)
Definition lists (ts : list ctree) (P : ctree -> Prop) : Prop :=
  Forall (good_tree S) ts /\ forall t, In t ts <-> P t.

(* [P'] is [P] without some trees that a remaining one covers *)
Definition same_view (P P' : ctree -> Prop) : Prop :=
  (forall t, P' t -> P t) /\ forall t, P t -> exists t', P' t' /\ covers rk t' t.

(* such sets merge to the same rows, in whatever order they are listed *)
Lemma views_agree {P P'} {ts ts' : list ctree} {v v'} :
  lists ts P -> lists ts' P' -> same_view P P' ->
  view_fold c ts = Some v -> view_fold c ts' = Some v' -> same_rows v v'.
Proof.
  intros [G I] [G' I'] [HP HC] Hv Hv'.
  assert (Hsub : forall t, In t ts' -> In t ts) by (intros t Ht; apply I, HP, I', Ht).
  assert (Hcov : forall t, In t ts -> exists t', In t' ts' /\ covers rk t' t).
  { intros t Ht. destruct (HC t (proj1 (I t) Ht)) as (t' & Ht' & C). exists t'. split; [apply I', Ht'|exact C]. }
  destruct ts as [|a gs], ts' as [|a' gs'].
  - cbn in Hv, Hv'. injection Hv as <-. injection Hv' as <-. intros k _. reflexivity.
  - exfalso. exact (Hsub a' (or_introl eq_refl)).
  - exfalso. destruct (Hcov a (or_introl eq_refl)) as (t' & [] & _).
  - cbn [view_fold] in Hv, Hv'.
    destruct (merge_covered (c_merge c) g (c_veq c) S f_total rk g_sel g_min S_compat veq_eq
                a gs a' gs' G G' Hsub Hcov) as (t1 & t2 & M1 & M2 & _ & _ & SR).
    rewrite M1 in Hv. rewrite M2 in Hv'. injection Hv as <-. injection Hv' as <-. exact SR.
Qed.

Lemma named_has (b : bucket V) n t : tree_named b n = Some t -> o_get n (b_cur b) <> None.
Proof.
  unfold tree_named, ver_cur. cbn [ver_in sel]. destruct (o_get n (b_cur b)); [discriminate|discriminate].
Qed.

Lemma named_opens b n t : bucket_ok c S b -> tree_named b n = Some t -> opens c S (c_bf c) b [PCur] n t.
Proof.
  intros Hb Ht. destruct (proj1 (bucket_ok_opens c S b) Hb n (named_has b n t Ht)) as (t' & O).
  rewrite (opens_named c S _ b n t' O) in Ht. injection Ht as <-. exact O.
Qed.

Lemma named_good b n t : bucket_ok c S b -> tree_named b n = Some t -> good_tree S t.
Proof. intros Hb Ht. destruct (named_opens b n t Hb Ht) as (v & _ & _ & _ & _ & Hg). exact Hg. Qed.

(* the trees of the versions under current/, as a set; any order of the names lists it *)
Definition cur_trees (b : bucket V) (t : ctree) : Prop := exists n, tree_named b n = Some t.

Lemma trees_of_cur {b order ts} : bucket_ok c S b -> trees_of b (apply_order order (o_names (b_cur b))) ts ->
  lists ts (cur_trees b).
Proof.
  intros Hb T. split.
  - induction T as [|n t names ts Hn F IH]; constructor; [exact (named_good b n t Hb Hn)|exact IH].
  - intros t. rewrite (trees_of_in _ _ _ T). split; intros (n & H); [exists n; apply H|].
    exists n. split; [|exact H]. apply in_apply_order, in_o_names. exact (named_has b n t H).
Qed.

(* the handle's tree and the trees of the versions it has not merged: what [new_view] merges *)
Definition new_trees (b : bucket V) (h : handle (V := V)) (t : ctree) : Prop :=
  t = h_tree h \/ exists x, mem x (map fst (h_merged h)) = false /\ tree_named b x = Some t.

Lemma trees_of_new {b h ts} : bucket_ok c S b -> good_tree S (h_tree h) -> trees_of b (others b h) ts ->
  lists (h_tree h :: ts) (new_trees b h).
Proof.
  intros Hb Hg T.
  assert (I : forall t, In t ts <-> exists x, mem x (map fst (h_merged h)) = false /\ tree_named b x = Some t).
  { intros t. rewrite (trees_of_in _ _ _ T). unfold others. split; intros (x & Hx & Ht); exists x.
    - apply filter_In in Hx. split; [apply negb_true_iff, Hx|exact Ht].
    - split; [apply filter_In; split; [apply in_o_names; exact (named_has b x t Ht)|rewrite Hx; reflexivity]|exact Ht]. }
  split.
  - constructor; [exact Hg|]. apply Forall_forall. intros t Ht. apply I in Ht. destruct Ht as (x & _ & Ht).
    exact (named_good b x t Hb Ht).
  - intros t. cbn [In]. rewrite I. unfold new_trees. split; intros [E|H]; auto.
Qed.

(* The sets before ([b]) and after ([b1]).  If every name denotes the same tree in both, the set is
   the same.  If [n] denotes the handle's tree in [b1], and of the other names only some that the
   handle had merged (whose trees its tree covers) are gone, the set is the new one up to covered
   trees. *)
Lemma unchanged_trees b b1 : (forall x, tree_named b1 x = tree_named b x) -> same_view (cur_trees b1) (cur_trees b).
Proof.
  intros E. split.
  - intros t (x & Hx). exists x. rewrite E. exact Hx.
  - intros t (x & Hx). exists t. split; [exists x; rewrite <- E; exact Hx|apply covers_refl].
Qed.

Lemma published_trees b b1 (h : handle (V := V)) n :
  tree_named b1 n = Some (h_tree h) -> (forall t, tree_named b n = Some t -> t = h_tree h) ->
  (forall x, x <> n -> tree_named b1 x = tree_named b x \/
                      (tree_named b1 x = None /\ In x (map fst (h_merged h)))) ->
  (forall k tk, In k (map fst (h_merged h)) -> tree_named b k = Some tk -> covers rk (h_tree h) tk) ->
  same_view (cur_trees b1) (new_trees b h).
Proof.
  intros HnN Hnb Hafter Hcov. split.
  - intros t [->|(x & Hm & Ht)]; [exists n; exact HnN|].
    destruct (Z.eq_dec x n) as [->|Hxn]; [exists n; rewrite (Hnb t Ht); exact HnN|].
    exists x. destruct (Hafter x Hxn) as [H|[_ H]]; [rewrite H; exact Ht|].
    apply mem_in in H. congruence.
  - intros t (x & Ht). destruct (Z.eq_dec x n) as [->|Hxn].
    + exists (h_tree h). split; [left; reflexivity|]. rewrite HnN in Ht. injection Ht as <-. apply covers_refl.
    + destruct (Hafter x Hxn) as [H|[H _]]; [rewrite H in Ht|congruence].
      destruct (mem x (map fst (h_merged h))) eqn:Em.
      * exists (h_tree h). split; [left; reflexivity|]. exact (Hcov x t (proj1 (mem_in _ _) Em) Ht).
      * exists t. split; [right; eauto|apply covers_refl].
Qed.

Notation exec0 := (@exec V oeq [] None _).

(* the version a commit publishes is one Open can merge, and denotes the handle's tree *)
Lemma published_version h nn n b b1 : handle_ok b h -> published h nn n b b1 -> opens c S (c_bf c) b1 [PCur] n (h_tree h).
Proof.
  intros (Hgt & Hmode & Hbf & _ & _ & Hclean) (Hn & _ & _ & _ & Hlink).
  assert (HnT : tree_of b1 (version_of h (commit_link h nn)) = Some (h_tree h)).
  { unfold tree_of, node_at. cbn [version_of v_link].
    destruct (commit_link_cases h nn) as [[St ->]|[St [[-> ->]|[D ->]]]]; rewrite St in Hlink.
    - rewrite Hlink. reflexivity.
    - reflexivity.
    - specialize (Hclean D). rewrite Hlink. destruct (h_link h); [exact Hclean|rewrite Hclean; reflexivity]. }
  exists (version_of h (commit_link h nn)). cbn [ver_in sel]. rewrite Hn. auto.
Qed.

(* the trees under current/ after a cut commit, in terms of those before: all as they were,
   or the handle's tree under the new name, the versions the handle merged possibly gone, and
   the others as they were.  Nodes are never deleted and a name denotes one content for ever
   (NamedProofs), so a version object that is still there denotes the tree it denoted
   ([version_kept]). *)
Lemma cut_commit_trees {plan crash order h muts b tr b1 r tr1 muts1} :
  Named b -> bucket_ok c S b -> handle_ok b h ->
  @exec V oeq plan crash _ muts b (commit order h) tr b1 r tr1 muts1 ->
  bucket_ok c S b1 /\ (forall e, r <> Failed e) /\
  (same_view (cur_trees b1) (cur_trees b) /\ (commit_needed h = true -> forall n, ~ acked r n) \/
   same_view (cur_trees b1) (new_trees b h)).
Proof.
  intros HN Hb Hh X. pose proof Hh as (_ & _ & _ & Hmk & Hcov & _).
  assert (R : reach oeq b b1).
  { (* what the handle knows, the versions it merged, is in the table of [b] *)
    eapply reach_step; [apply reach_refl|apply (commit_wn order h (b_tbl b))|auto|exact X].
    intros k v Hin. exact (named_sel b PCur HN _ _ (Hmk _ _ Hin)). }
  destruct (commit_cut oeq plan crash X) as (Hnf & Hcase).
  pose proof (proj1 (commit_bucket oeq plan crash order h _ _ _ _ _ _ _ X)) as Hkept.
  pose proof (fun x => version_kept c oeq oeq_eq S b b1 HN R Hkept x Hb) as Hsame.
  destruct Hcase as [((Hcur & _ & _) & Hnack)|(nn & n & P & _)].
  - split; [apply (proj2 (bucket_ok_opens c S b1)); intros x Hx; apply Hsame; [rewrite Hcur; reflexivity|exact Hx]|]. split; [exact Hnf|].
    left. split; [apply unchanged_trees; intros x; apply Hsame; rewrite Hcur; reflexivity|exact Hnack].
  - pose proof (published_version h nn n b b1 Hh P) as On. pose proof (opens_named c S _ b1 n _ On) as HnN.
    destruct P as (Hn & _ & _ & Hafter & _).
    split; [|split; [exact Hnf|]].
    + apply (proj2 (bucket_ok_opens c S b1)). intros x Hx. destruct (Z.eq_dec x n) as [->|Hxn]; [exists (h_tree h); exact On|].
      destruct (Hafter x Hxn) as [H|[H _]]; [apply Hsame; assumption|contradiction].
    + right. apply (published_trees b b1 h n HnN); [| |exact Hcov].
      * (* a name denotes one tree for ever *)
        intros t Ht. exact (opens_stable c oeq oeq_eq S HN R (named_opens b n t Hb Ht) On).
      * intros x Hxn. destruct (Hafter x Hxn) as [H|[H Hin]]; [left; apply Hsame; exact H|right].
        split; [|exact Hin]. unfold tree_named, ver_cur. cbn [ver_in sel]. rewrite H. reflexivity.
Qed.

(* C04 at the level of CONTENTS: a commit cut at any point (crash, or any storage fault plan)
   leaves a bucket from which a fault-free reader computes either the old contents or the new
   contents; a failed commit leaves the old ones, an acknowledged one the new ones *)
Theorem crash_view_old_or_new {plan crash order h muts b tr b1 r tr1 muts1
        when oorder corder m2 tr2 b2 r2 tr2' m2' vold vnew} :
  Named b -> bucket_ok c S b -> handle_ok b h ->
  @exec V oeq plan crash _ muts b (commit order h) tr b1 r tr1 muts1 ->
  old_view b vold -> new_view b h vnew ->
  exec0 m2 b1 (open c true None when oorder corder) tr2 b2 r2 tr2' m2' ->
  exists hv, r2 = Done hv /\
    (same_rows (h_tree hv) vold \/ same_rows (h_tree hv) vnew) /\
    (forall e, r = Failed e -> same_rows (h_tree hv) vold) /\
    (forall n, acked r n -> commit_needed h = true -> same_rows (h_tree hv) vnew).
Proof.
  intros HN Hb Hh X (order0 & ts0 & T0 & V0) (tsn & Tn & Vn) X2.
  destruct (cut_commit_trees HN Hb Hh X) as (Hb1 & Hnf & Hcase).
  (* [f_P]: a join that selects one of its arguments keeps [S] *)
  destruct (open_ro_spec c oeq S g f_total (f_P _ S g g_sel) Hb1 X2) as (_ & hv & ts1 & -> & T1 & V1 & _).
  pose proof (trees_of_cur Hb1 T1) as L1.
  exists hv. split; [reflexivity|]. destruct Hcase as [(SV & Hnack)|SV].
  - pose proof (views_agree L1 (trees_of_cur Hb T0) SV V1 V0) as SR.
    split; [left; exact SR|]. split; [intros _ _; exact SR|].
    intros n0 Ha Hne. destruct (Hnack Hne n0 Ha).
  - pose proof (views_agree L1 (trees_of_new Hb (proj1 Hh) Tn) SV V1 Vn) as SR.
    split; [right; exact SR|]. split; [intros e He; destruct (Hnf e He)|intros _ _ _; exact SR].
Qed.

End CrashView.
