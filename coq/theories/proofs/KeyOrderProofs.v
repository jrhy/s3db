(* Proofs about KeyOrder.v: SQLite's order is a total order on keys; the implemented order
   coincides with it on safe keys; and the keys beyond 2^53 on which it fails (the refutations
   themselves are in C07.v). *)
From S3db Require Import Base KeyOrder.
Open Scope Z_scope.

Lemma scale_pos : 0 < scale.
Proof. apply Z.pow_pos_nonneg; lia. Qed.

Lemma bytes_cmp_refl s : bytes_cmp s s = Eq.
Proof. induction s as [|x s IH]; cbn [bytes_cmp]; [|rewrite Z.compare_refl]; auto. Qed.

Lemma bytes_cmp_eq a : forall b, bytes_cmp a b = Eq -> a = b.
Proof.
  induction a as [|x a IH]; intros [|y b]; cbn [bytes_cmp]; try discriminate; [reflexivity|].
  destruct (Z.compare_spec x y) as [->| |]; try discriminate. intros E. rewrite (IH b E). reflexivity.
Qed.

Lemma bytes_cmp_antisym a : forall b, bytes_cmp b a = CompOpp (bytes_cmp a b).
Proof.
  induction a as [|x a IH]; intros [|y b]; try reflexivity.
  cbn [bytes_cmp]. rewrite (Z.compare_antisym x y), IH. destruct (x ?= y); reflexivity.
Qed.

Lemma bytes_cmp_trans_lt a : forall b c, bytes_cmp a b = Lt -> bytes_cmp b c = Lt -> bytes_cmp a c = Lt.
Proof.
  induction a as [|x a IH]; intros [|y b] [|z c]; try discriminate; try reflexivity. cbn [bytes_cmp].
  (* equal heads leave it to the tails; otherwise the heads decide *)
  destruct (Z.compare_spec x y) as [->|L|G]; [destruct (y ?= z); auto using (IH b c)| |discriminate].
  destruct (Z.compare_spec y z) as [<-|L'|G]; try discriminate; intros _ _;
    [rewrite (proj2 (Z.compare_lt_iff x y) L)|rewrite (proj2 (Z.compare_lt_iff x z)) by lia]; reflexivity.
Qed.

(* keys the exact order compares: not NULL, not NaN (every safe key is one: [safe_valid]) *)
Definition valid_key (v : sval) : bool :=
  match v with
  | VNull => false
  | VReal r => match decode r with FNaN => false | _ => true end
  | _ => true
  end.

(* a key as a string of integers that [bytes_cmp] orders as SQLite orders the keys: the class (numbers,
   text, blobs), then the number on the scale of [decode], or the bytes *)
Definition emb (v : sval) : bytes :=
  match v with
  | VInt z => [0; z * scale]
  | VReal r => [0; match decode r with FNum x => x | FNaN => 0 end]
  | VText s => 2 :: s
  | VBlob s => 3 :: s
  | VNull => []
  end.

Lemma go_fcmp_num x y : go_fcmp (FNum x) (FNum y) = Z.compare x y.
Proof. unfold go_fcmp, fl_lt, Z.ltb. rewrite (Z.compare_antisym x y). destruct (x ?= y); reflexivity. Qed.

Lemma go_fcmp_refl x : go_fcmp x x = Eq.
Proof. destruct x as [|x]; [reflexivity|]. rewrite go_fcmp_num. apply Z.compare_refl. Qed.

Lemma cmp_scale x y : Z.compare (x * scale) (y * scale) = Z.compare x y.
Proof. symmetry. apply Zmult_compare_compat_r. pose proof scale_pos. lia. Qed.

Lemma cmp_num c x y : bytes_cmp [c; x] [c; y] = (x ?= y).
Proof. cbn [bytes_cmp]. rewrite Z.compare_refl. destruct (x ?= y); reflexivity. Qed.

Lemma order_exact_emb a b :
  valid_key a = true -> valid_key b = true ->
  order_exact a b = Some (bytes_cmp (emb a) (emb b)).
Proof.
  destruct a as [|x|r|s|s], b as [|y|r2|s2|s2]; cbn [valid_key]; intros Ha Hb; try discriminate;
    unfold order_exact; cbn [type_index Z.leb Z.compare order_exact_sorted emb];
    try reflexivity; rewrite cmp_num; unfold fl_of_int.
  - rewrite cmp_scale. reflexivity.
  - destruct (decode r2); [discriminate|]. rewrite go_fcmp_num. reflexivity.
  - destruct (decode r); [discriminate|]. rewrite go_fcmp_num, <- Z.compare_antisym. reflexivity.
  - destruct (decode r), (decode r2); try discriminate. rewrite go_fcmp_num. reflexivity.
Qed.

(* equal exactly when the embeddings coincide: numerically equal numbers, identical
   text, identical blobs *)
Theorem order_exact_eq_iff a b :
  valid_key a = true -> valid_key b = true ->
  (order_exact a b = Some Eq <-> emb a = emb b).
Proof.
  intros Ha Hb. rewrite order_exact_emb by assumption. split.
  - intros [= H]. exact (bytes_cmp_eq _ _ H).
  - intros H. rewrite H, bytes_cmp_refl. reflexivity.
Qed.

(* text and blob keys are equal only when byte-identical; integers only when identical *)
Theorem emb_inj_same_class a b :
  emb a = emb b ->
  match a, b with
  | VInt x, VInt y => x = y
  | VText s, VText t => s = t
  | VBlob s, VBlob t => s = t
  | _, _ => True
  end.
Proof.
  destruct a, b; cbn [emb]; try trivial; intros H; injection H; auto.
  apply Z.mul_reg_r. pose proof scale_pos. lia.
Qed.

Lemma round53_small z : Z.abs z <= 2 ^ 53 -> round53 z = z.
Proof.
  intros H. apply Z.le_lteq in H. destruct H as [L|E].
  - unfold round53. destruct (Z.eqb_spec (Z.abs z) 0) as [E0|N0]; [reflexivity|].
    rewrite (proj2 (Z.leb_le _ 53)); [reflexivity|].
    apply Z.le_succ_l, Z.log2_lt_pow2; [clear L; lia|exact L].
  - (* 54 bits, and nothing to round off *)
    destruct z as [|p|p]; [reflexivity| |]; cbn [Z.abs] in E.
    + rewrite E. reflexivity.
    + change (Z.neg p) with (- Z.pos p). rewrite E. reflexivity.
Qed.

(* the two orders differ only in how an INTEGER is set against a REAL *)
Lemma sorted_safe_exact a b : safe_key a = true -> order_sorted a b = order_exact_sorted a b.
Proof.
  destruct a as [|x| | |], b; try reflexivity. intros H. cbn [order_sorted order_exact_sorted].
  unfold go_float64_of_int. rewrite round53_small by (apply Z.leb_le; exact H). reflexivity.
Qed.

Theorem order_safe_exact a b :
  safe_key a = true -> safe_key b = true -> order a b = order_exact a b.
Proof. intros Ha Hb. unfold order, order_exact. rewrite !sorted_safe_exact by assumption. reflexivity. Qed.

(* against a REAL that decodes to the whole number x, the implemented order sees an INTEGER only through
   [round53]; no number on the scale of [decode] has to be computed *)
Lemma order_int_real z r x : decode r = FNum (x * scale) ->
  order (VInt z) (VReal r) = Some (round53 z ?= x) /\ order_exact (VInt z) (VReal r) = Some (z ?= x).
Proof.
  intros E. unfold order, order_exact. cbn [type_index Z.leb Z.compare order_sorted order_exact_sorted].
  unfold go_float64_of_int, fl_of_int. rewrite E, !go_fcmp_num, !cmp_scale. split; reflexivity.
Qed.

Lemma order_real_int r z x : decode r = FNum (x * scale) ->
  order (VReal r) (VInt z) = Some (x ?= round53 z) /\ order_exact (VReal r) (VInt z) = Some (x ?= z).
Proof.
  intros E. unfold order, order_exact. cbn [type_index Z.leb Z.compare order_sorted order_exact_sorted].
  unfold go_float64_of_int, fl_of_int. rewrite E, !go_fcmp_num, !cmp_scale, <- !Z.compare_antisym. split; reflexivity.
Qed.

Lemma safe_valid a : safe_key a = true -> valid_key a = true.
Proof. destruct a; trivial. Qed.

(* keys beyond 2^53 on which the implemented order fails (finding D4, C07) *)
Definition k_a := VInt (2 ^ 53).
Definition k_b := VInt (2 ^ 53 + 1).
Definition k_r := VReal 4845873199050653696. (* 2^53 as a double *)

Lemma decode_k_r : decode 4845873199050653696 = FNum (2 ^ 53 * scale).
Proof. vm_compute. reflexivity. Qed.

(* equal INTEGER, TEXT or BLOB keys are identical values (order_exact_eq_iff with
   emb_inj_same_class), hence trivially on one level *)
Theorem layer_same_repr a b bf : a = b -> layer a bf = layer b bf.
Proof. intros ->. reflexivity. Qed.
