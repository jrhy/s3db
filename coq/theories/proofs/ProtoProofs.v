(* ProtoProofs.v — properties of programs over storage requests that hold under EVERY fault
   plan, crash point and starting bucket: a program without mutating requests leaves the three
   object prefixes unchanged and its trace contains no PUT/DELETE.  Instances: everything a
   read-only handle does (open, historic open, commit, history deletion, history walk: C13), and
   what the history deletion of a writable handle does before its first DELETE.
   Also here, because every file that walks these programs imports this one: facts about the store's
   maps and the lists of names the protocol computes with, the values a program
   can return ([returns], shown along the program as [rets]), and one round of mergeRoots and of
   [remaining_links] with its parts named ([merge_loop_cons], [remaining_links_cons]). *)
From S3db Require Import Base RowMerge Tree Store KvProto.
From S3db.proofs Require Import ExecProofs.
Import ListNotations.
Open Scope Z_scope.

Lemma mem_in n l : mem n l = true <-> In n l.
Proof.
  induction l as [|x l IH]; cbn [mem In]; [split; [discriminate|tauto]|].
  rewrite orb_true_iff, IH, Z.eqb_eq. split; intros [H|H]; auto.
Qed.

(* the store's maps and the lists of names the protocol computes with *)
Lemma get_del_same {V} n (m : omap V) : o_get n (o_del n m) = None.
Proof.
  induction m as [|[k o] m IH]; cbn; [reflexivity|].
  destruct (n =? k) eqn:E; [exact IH|]. cbn. rewrite E. exact IH.
Qed.
Lemma get_del_other {V} n k (m : omap V) : n <> k -> o_get n (o_del k m) = o_get n m.
Proof.
  intros Hn. induction m as [|[k' o] m IH]; cbn; [reflexivity|].
  destruct (k =? k') eqn:E.
  - apply Z.eqb_eq in E. subst k'. destruct (n =? k) eqn:E2; [apply Z.eqb_eq in E2; contradiction|exact IH].
  - cbn. destruct (n =? k'); [reflexivity|exact IH].
Qed.
Lemma get_put_same {V} n o (m : omap V) : o_get n (o_put n o m) = Some o.
Proof. unfold o_put. cbn. rewrite Z.eqb_refl. reflexivity. Qed.
Lemma get_put_other {V} n k o (m : omap V) : n <> k -> o_get n (o_put k o m) = o_get n m.
Proof.
  intros Hn. unfold o_put. cbn. destruct (n =? k) eqn:E; [apply Z.eqb_eq in E; contradiction|].
  apply get_del_other; exact Hn.
Qed.
Lemma in_insert_sorted n x l : In n (insert_sorted x l) <-> x = n \/ In n l.
Proof.
  induction l as [|y l IH]; cbn [insert_sorted]; [reflexivity|].
  destruct (x <? y); [reflexivity|]. destruct (x =? y) eqn:E.
  - apply Z.eqb_eq in E. subst y. split; [auto|intros [H|H]; [left; exact H|exact H]].
  - cbn [In]. split.
    + intros [H|H]; [auto|]. apply IH in H. destruct H; auto.
    + intros [H|[H|H]]; [right; apply IH; auto|auto|right; apply IH; auto].
Qed.

Lemma in_sorted_names n l : In n (fold_right insert_sorted [] l) <-> In n l.
Proof.
  induction l as [|x l IH]; cbn [fold_right In]; [reflexivity|]. split.
  - intros H. apply in_insert_sorted in H. destruct H; [auto|right; apply IH; assumption].
  - intros H. apply in_insert_sorted. destruct H; [auto|right; apply IH; assumption].
Qed.

Lemma in_o_names {V} n (m : omap V) : In n (o_names m) <-> o_get n m <> None.
Proof.
  unfold o_names. etransitivity; [apply in_sorted_names|].
  induction m as [|[k o] m IH]; cbn [map fst In o_get]; [split; [intros []|intros H; apply H; reflexivity]|].
  destruct (n =? k) eqn:E.
  - apply Z.eqb_eq in E. subst k. split; [discriminate|auto].
  - apply Z.eqb_neq in E. split; [intros [H|H]; [congruence|apply IH, H]|intros H; right; apply IH, H].
Qed.

Lemma in_apply_order n order l : In n (apply_order order l) <-> In n l.
Proof.
  unfold apply_order. split.
  - intros H. apply in_app_or in H. destruct H as [H|H]; apply filter_In in H; [apply mem_in, H|apply H].
  - intros H. apply in_or_app. destruct (mem n order) eqn:E; [left|right]; apply filter_In.
    + split; [apply mem_in, E|apply mem_in, H].
    + split; [exact H|rewrite E; reflexivity].
Qed.

Lemma mem_o_names {V} n (m : omap V) : mem n (o_names m) = true <-> o_get n m <> None.
Proof. rewrite mem_in. apply in_o_names. Qed.


Lemma merged_add_in key root m k (v : vobj) : In (k, v) (merged_add key root m) -> (k, v) = (key, root) \/ In (k, v) m.
Proof.
  unfold merged_add. destruct (mem key (map fst m)); intros H.
  - apply in_map_iff in H. destruct H as ([k0 v0] & E & Hin). cbn [fst] in E.
    destruct (k0 =? key); [left; symmetry; exact E|right; rewrite <- E; exact Hin].
  - apply in_app_or in H. destruct H as [H|[H|[]]]; [right; exact H|left; symmetry; exact H].
Qed.

Lemma in_merged_add key (root : vobj) m : In (key, root) (merged_add key root m).
Proof.
  unfold merged_add. destruct (mem key (map fst m)) eqn:E.
  - apply mem_in in E. apply in_map_iff in E. destruct E as ([k0 r0] & E1 & Hin). cbn [fst] in E1. subst k0.
    apply in_map_iff. exists (key, r0). cbn [fst]. rewrite Z.eqb_refl. split; [reflexivity|exact Hin].
  - apply in_or_app. right. left. reflexivity.
Qed.

(* A class of programs that does not look at a test holds of a conditional when it holds of both
   branches.  The walks apply this instead of destructing the test, which would abstract the whole
   program that follows in the goal. *)
Lemma if_both {X} (P : X -> Prop) (c : bool) x y : P x -> P y -> P (if c then x else y).
Proof. destruct c; auto. Qed.

Section NoMut.
Context {V : Type}.
Notation prog := (Store.prog V).

Inductive no_mut {A} : prog A -> Prop :=
| nm_ret a : no_mut (Ret a)
| nm_fail e : no_mut (Fail e)
| nm_do r k : is_mut r = false -> (forall x, no_mut (k x)) -> no_mut (Do r k).

Lemma no_mut_catch {A} (p : prog A) : no_mut p -> no_mut (catch p).
Proof. induction 1 as [a|e|r k Hr Hk IH]; cbn [catch]; constructor; auto. Qed.

(* possible results of a program (over all responses of the environment) *)
Inductive returns {A} : prog A -> A -> Prop :=
| ret_ret a : returns (Ret a) a
| ret_do r k x a : returns (k x) a -> returns (Do r k) a.

Lemma no_mut_bind {A B} (p : prog A) (f : A -> prog B) :
  no_mut p -> (forall a, no_mut (f a)) -> no_mut (bind p f).
Proof.
  intros Hp Hf. induction Hp as [a|e|r k Hr Hk IH]; cbn [bind]; [apply Hf|constructor|constructor; auto].
Qed.

Lemma returns_inv {A} {p : prog A} {a} : returns p a ->
  match p with Ret b => a = b | Fail _ => False | Do _ k => exists x, returns (k x) a end.
Proof. intros R. destruct R; eauto. Qed.

Lemma returns_bind {A B} (p : prog A) (f : A -> prog B) b :
  returns (bind p f) b -> exists a, returns p a /\ returns (f a) b.
Proof.
  induction p as [a|e|r k IH]; cbn; intros H.
  - exists a. split; [constructor|exact H].
  - destruct (returns_inv H).
  - destruct (returns_inv H) as [x Hx].
    destruct (IH x Hx) as (a & Ha & Hb). exists a. split; [econstructor; exact Ha | exact Hb].
Qed.

(* what [p] can return, shown along the program *)
Definition rets {A} (P : A -> Prop) (p : prog A) : Prop := forall a, returns p a -> P a.

Lemma rets_ret {A} (P : A -> Prop) a : P a -> rets P (Ret a).
Proof. intros H b R. rewrite (returns_inv R). exact H. Qed.
Lemma rets_fail {A} (P : A -> Prop) e : rets P (Fail e).
Proof. intros a R. destruct (returns_inv R). Qed.
Lemma rets_do {A} (P : A -> Prop) r k : (forall x, rets P (k x)) -> rets P (Do r k).
Proof. intros H a R. destruct (returns_inv R) as [x Rx]. exact (H x a Rx). Qed.
Lemma rets_bind {A B} (Q : A -> Prop) (P : B -> Prop) p (f : A -> prog B) :
  rets Q p -> (forall a, Q a -> rets P (f a)) -> rets P (bind p f).
Proof. intros Hp Hf b R. apply returns_bind in R. destruct R as (a & Ra & Rb). exact (Hf a (Hp a Ra) b Rb). Qed.
Lemma rets_any {A} (p : prog A) : rets (fun _ => True) p.
Proof. intros a _. exact I. Qed.

(* stores (not the naming table) *)
Definition same_stores (b b' : bucket V) : Prop :=
  b_node b' = b_node b /\ b_cur b' = b_cur b /\ b_merged b' = b_merged b.

Lemma same_stores_refl b : same_stores b b.
Proof. repeat split. Qed.
Lemma same_stores_trans a b c : same_stores a b -> same_stores b c -> same_stores a c.
Proof. intros (A1 & A2 & A3) (B1 & B2 & B3). repeat split; congruence. Qed.

Variable oeq : obj V -> obj V -> bool.

Lemma exec_nonmut_same r b : is_mut r = false -> same_stores b (fst (exec_req oeq r b)).
Proof.
  destruct r; cbn; try discriminate; intros _; try apply same_stores_refl.
  unfold intern. destruct (tbl_find oeq o (b_tbl b)); cbn; repeat split.
Qed.

Definition trace_nomut (tr : list (req V * bool)) : Prop := Forall (fun e => is_mut (fst e) = false) tr.

Theorem run_no_mut {A} fuel : forall plan crash i muts b (p : prog A) tr,
  no_mut p -> trace_nomut tr ->
  let '(b', _, tr') := run oeq fuel plan crash i muts b p tr in
  same_stores b b' /\ trace_nomut tr'.
Proof.
  intros plan crash i muts b p tr Hp Htr.
  destruct (run oeq fuel plan crash i muts b p tr) as [[b' r] tr'] eqn:E.
  destruct (run_reaches _ _ _ E) as (m' & p' & R & _).
  apply (reaches_inv oeq plan crash (fun b1 tr1 p1 => no_mut p1 /\ same_stores b b1 /\ trace_nomut tr1)) in R;
    [tauto| |auto using same_stores_refl].
  clear. intros b1 tr1 rq k ok rs _ (Hp & Hs & Ht). inversion Hp as [| |? ? Hr Hk]; subst.
  split; [apply Hk|]. split.
  - destruct ok; [|exact Hs]. eapply same_stores_trans; [exact Hs|apply exec_nonmut_same; exact Hr].
  - destruct (is_hash rq); [exact Ht|]. constructor; assumption.
Qed.

(* a result the interpreter reports is one the program can return *)
Lemma run_returns {fuel plan crash A} {p : prog A} {i muts b tr b' a tr'} :
  run oeq fuel plan crash i muts b p tr = (b', Done a, tr') -> returns p a.
Proof.
  intros E. destruct (run_reaches _ _ _ E) as (m' & p' & R & St). cbn in St. subst p'.
  (* the invariant runs backwards: whatever the program reached can return, [p] can return *)
  refine (reaches_inv oeq plan crash (fun _ _ p1 => returns p1 a -> returns p a) _ _ _ _ _ _ _ _ _ R (fun H => H) (ret_ret a)).
  intros _ _ rq k _ rs _ H Hk. apply H. econstructor. exact Hk.
Qed.

Variable c : cfg (V := V).

Lemma load_root_any_nm ps n : no_mut (load_root_any ps n).
Proof.
  induction ps as [|p ps IH]; cbn; [constructor|].
  constructor; [reflexivity|]. intros x. destruct x as [| |o| | |]; try constructor; [|exact IH].
  destruct o; constructor.
Qed.

Lemma load_tree_nm v : no_mut (load_tree c v).
Proof.
  unfold load_tree. apply if_both; [constructor|].
  destruct (v_link v); [|constructor].
  constructor; [reflexivity|]. intros x. destruct x as [| |o| | |]; try constructor. destruct o; constructor.
Qed.

(* One round of mergeRoots, its parts named: Clone() of the accumulator (0 = there, 1 = skip this
   version, 2 = fail), the two loads of the graft's root by the diff, and the two accumulators it
   goes on with (the first version is adopted, a later one grafted). *)
Definition clone_acc (skip : bool) (a : macc (V := V)) : prog Z :=
  match a_inmem a, a_link a with
  | false, Some l =>
      Do (RGet PNode l) (fun r =>
        match r with
        | RObj (ONode _) => Ret 0
        | RNoSuchKey => Ret (if skip then 1 else 2)
        | _ => Ret 2
        end)
  | _, _ => Ret 0
  end.

Definition reload_graft (root : vobj) : prog bool :=
  match v_link root with
  | Some l => Do (RGet PNode l) (fun _ =>
                Do (RGet PNode l) (fun r2 => match r2 with RObj (ONode _) => Ret true | _ => Ret false end))
  | None => Ret true
  end.

Definition adopted (key : name) (root : vobj) (graft : tree (cval V)) : macc (V := V) :=
  {| a_tree := graft; a_dirty := false; a_link := v_link root; a_msources := [key]; a_mode := v_mode root;
     a_bf := v_bf root; a_created := v_created root; a_conf := 0; a_inmem := false |}.

Definition grafted (a : macc (V := V)) (key : name) (graft t' : tree (cval V)) : macc (V := V) :=
  {| a_tree := t'; a_dirty := a_dirty a || negb (tree_eqb c t' (a_tree a)); a_link := a_link a;
     a_msources := a_msources a ++ [key]; a_mode := a_mode a; a_bf := a_bf a; a_created := a_created a;
     a_conf := a_conf a + count_conflicts c (a_tree a) graft; a_inmem := true |}.

Lemma merge_loop_cons ps skip key rest acc merged :
  merge_loop c ps skip (key :: rest) acc merged =
  bind (load_root_any ps key) (fun ro =>
    match ro with
    | None => if skip then merge_loop c ps skip rest acc merged else Fail E_NOTFOUND
    | Some root =>
        bind (load_tree c root) (fun lt =>
          match lt with
          | LGone => if skip then merge_loop c ps skip rest acc merged else Fail E_LOADTREE
          | LErr e => Fail e
          | LTree graft =>
              match acc with
              | None => merge_loop c ps skip rest (Some (adopted key root graft)) (merged_add key root merged)
              | Some a =>
                  if negb (a_bf a =? v_bf root) then Fail E_BF else
                  bind (clone_acc skip a) (fun cloned =>
                    if cloned =? 2 then Fail E_LOADTREE
                    else if cloned =? 1 then merge_loop c ps skip rest acc merged
                    else if negb (a_mode a =? v_mode root) then Fail E_MERGE
                    else bind (reload_graft root) (fun diffok =>
                      if negb diffok then Fail E_MERGE else
                      match merge_into (c_merge c) (c_veq c) (a_tree a) graft with
                      | None => Fail E_PANIC
                      | Some t' => merge_loop c ps skip rest (Some (grafted a key graft t')) (merged_add key root merged)
                      end))
              end
          end)
    end).
Proof. reflexivity. Qed.

Lemma clone_acc_nm skip a : no_mut (clone_acc skip a).
Proof.
  unfold clone_acc. apply if_both; [constructor|]. destruct (a_link a); [|constructor].
  constructor; [reflexivity|]. intros x. destruct x as [| |o| | |]; try constructor. destruct o; constructor.
Qed.

Lemma reload_graft_nm root : no_mut (reload_graft root).
Proof.
  unfold reload_graft. destruct (v_link root); [|constructor].
  constructor; [reflexivity|]. intros _. constructor; [reflexivity|].
  intros x. destruct x as [| |o| | |]; try constructor. destruct o; constructor.
Qed.

Lemma merge_loop_nm ps skip names : forall acc merged, no_mut (merge_loop c ps skip names acc merged).
Proof.
  induction names as [|key rest IH]; intros acc merged; [constructor|]. rewrite merge_loop_cons.
  apply no_mut_bind; [apply load_root_any_nm|]. intros [root|]; [|apply if_both; [apply IH|constructor]].
  apply no_mut_bind; [apply load_tree_nm|]. intros [graft| |e]; [|apply if_both; [apply IH|constructor]|constructor].
  destruct acc as [a|]; [|apply IH]. apply if_both; [constructor|].
  apply no_mut_bind; [apply clone_acc_nm|]. intros cl.
  apply if_both; [constructor|]. apply if_both; [apply IH|].
  apply if_both; [constructor|].
  apply no_mut_bind; [apply reload_graft_nm|]. intros ok. apply if_both; [constructor|].
  destruct (merge_into _ _ _ _); [apply IH|constructor].
Qed.

Lemma commit_ro order (h : handle (V := V)) : h_ro h = true -> exists r, commit order h = Ret (h, r).
Proof. intros H. unfold commit. rewrite H. destruct (negb (commit_needed h)); eexists; reflexivity. Qed.

Theorem open_ro_nm only when order corder : no_mut (open c true only when order corder).
Proof.
  unfold open. cbn [negb andb].
  apply no_mut_bind.
  - destruct only; [constructor|]. constructor; [reflexivity|]. intros x. destruct x; constructor.
  - intros [[names ps] skip]. apply no_mut_bind; [apply merge_loop_nm|].
    intros [acc merged]. constructor.
Qed.

Lemma load_graph_nm fuel : forall todo g, no_mut (load_graph (V := V) fuel todo g).
Proof.
  induction fuel as [|f IH]; intros todo g; cbn [load_graph]; [constructor|].
  destruct todo as [|n rest]; [constructor|].
  apply if_both; [apply IH|].
  apply no_mut_bind; [apply load_root_any_nm|]. intros [v|]; apply IH.
Qed.

Lemma cand_blocks_nm g cs : no_mut (cand_blocks c g cs).
Proof.
  induction cs as [|p cs IH]; cbn [cand_blocks]; [constructor|].
  destruct (find (fun kv => fst kv =? p) g) as [[k pv]|]; [|exact IH].
  apply no_mut_bind; [apply load_tree_nm|]. intros [t| |e]; try exact IH.
  induction (children_of g p) as [|[k0 cv] ks IHk]; [exact IH|].
  apply no_mut_bind; [apply load_tree_nm|]. intros [t'| |e']; try exact IHk.
  apply no_mut_bind; [exact IHk|]. intros r. constructor.
Qed.

(* One round of [remaining_links], with the two ways it goes on left open: the version whose
   nodes are kept for the name [n] is looked up in the graph, then under current/, then under
   merged/; [K] goes on with that version, [R] without one. *)
Definition pick_merged {A} (cs mrg : list name) (before : time) (n : name) (K : vobj -> prog A) (R : prog A) : prog A :=
  if mem n mrg && negb (mem n cs) then
    bind (load_root_any [PMerged] n) (fun ro =>
      match ro with
      | Some v => if (match v_created v with Some cr => cr <? before | None => false end) then R else K v
      | None => R
      end)
  else R.

Definition pick_kept {A} (g : list (name * vobj)) (cs cur mrg : list name) (before : time) (n : name)
           (K : vobj -> prog A) (R : prog A) : prog A :=
  match (match find (fun kv => fst kv =? n) g with
         | Some (_, v) => if mem n cs then None else Some v
         | None => None
         end) with
  | Some v => K v
  | None => if mem n cur
            then bind (load_root_any [PCur] n) (fun ro =>
                   match ro with None => pick_merged cs mrg before n K R | Some v => K v end)
            else pick_merged cs mrg before n K R
  end.

Lemma remaining_links_cons g cs cur mrg before n rest acc :
  remaining_links c g cs cur mrg before (n :: rest) acc =
  pick_kept g cs cur mrg before n
    (fun v => bind (load_tree c v) (fun l =>
       match l with
       | LTree _ => remaining_links c g cs cur mrg before rest (match v_link v with Some x => x :: acc | None => acc end)
       | LGone => Fail E_LOADTREE
       | LErr e => Fail e
       end))
    (remaining_links c g cs cur mrg before rest acc).
Proof. reflexivity. Qed.

Lemma pick_merged_nm {A} cs mrg before n (K : vobj -> prog A) R :
  (forall v, no_mut (K v)) -> no_mut R -> no_mut (pick_merged cs mrg before n K R).
Proof.
  intros HK HR. unfold pick_merged. apply if_both; [|exact HR].
  apply no_mut_bind; [apply load_root_any_nm|]. intros [v|]; [|exact HR].
  apply if_both; auto.
Qed.

Lemma pick_kept_nm {A} g cs cur mrg before n (K : vobj -> prog A) R :
  (forall v, no_mut (K v)) -> no_mut R -> no_mut (pick_kept g cs cur mrg before n K R).
Proof.
  intros HK HR. pose proof (pick_merged_nm cs mrg before n K R HK HR) as M.
  unfold pick_kept. destruct (match find _ g with Some _ => _ | None => _ end) as [v|]; [apply HK|].
  apply if_both; [|exact M]. apply no_mut_bind; [apply load_root_any_nm|]. intros [v|]; auto.
Qed.

Lemma remaining_links_nm g cs cur mrg before names : forall acc, no_mut (remaining_links c g cs cur mrg before names acc).
Proof.
  induction names as [|n rest IH]; intros acc; [constructor|]. rewrite remaining_links_cons.
  apply pick_kept_nm; [|apply IH]. intros v.
  apply no_mut_bind; [apply load_tree_nm|]. intros [t| |e]; try constructor. apply IH.
Qed.

Lemma keep_reachable_nm h g cs before blocks : no_mut (keep_reachable c h g cs before blocks).
Proof.
  unfold keep_reachable. destruct blocks; [constructor|].
  apply nm_do; [reflexivity|]. intros [|cur| | | |]; try apply nm_fail.
  apply nm_do; [reflexivity|]. intros [|mrg| | | |]; try apply nm_fail.
  apply no_mut_bind; [apply remaining_links_nm|]. intros keep. apply nm_ret.
Qed.

Theorem delete_historic_ro_nm h before : h_ro h = true -> no_mut (delete_historic c h before).
Proof. intros H. unfold delete_historic. rewrite H. constructor. Qed.

Lemma trace_round_nm k after round : no_mut (trace_round c k after round).
Proof.
  induction round as [|[h cu] rest IH]; cbn [trace_round]; [constructor|].
  destruct (t_get k (h_tree h)) as [gv|]; [|exact IH].
  apply if_both; [exact IH|]. apply if_both; [exact IH|]. apply if_both.
  - apply no_mut_bind; [exact IH|]. intros [em nx]. constructor.
  - apply no_mut_bind; [apply open_ro_nm|]. intros ph.
    apply no_mut_bind; [exact IH|]. intros [em nx]. constructor.
Qed.

Theorem trace_history_nm fuel : forall k after round, no_mut (trace_history c fuel k after round).
Proof.
  induction fuel as [|f IH]; intros k after round; cbn [trace_history]; [constructor|].
  destruct round; [constructor|].
  apply no_mut_bind; [apply trace_round_nm|]. intros [em nx].
  apply no_mut_bind; [apply IH|]. intros r. constructor.
Qed.

End NoMut.
