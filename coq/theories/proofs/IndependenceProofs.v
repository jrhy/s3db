(* IndependenceProofs.v — independent connections (C19), as far as the model can say it:
   the process is a product of worlds (a world = its connections, their attribute blocks,
   their tables and bucket prefix); a step of world i applies that world's operation to that
   world's state only.  For EVERY interleaving of the worlds' operation streams, each world ends
   in the state it reaches by running its own stream alone: the result of every table is what
   it would be had the connections run one after another, in any order; in particular the
   connection attributes (deadline, write_time) of one connection are untouched by any
   statement of another.  That the implementation IS such a product — that the process-wide
   registry, the in-memory bucket and the HTTP client are shared safely — is what the threaded
   level checks under the race detector; no model statement can exhibit a data race. *)
From Coq Require Import ZArith List.
From S3db Require Import Sched.
Import ListNotations.

Section Product.
Variables (S O : Type) (step : S -> O -> S).

Definition wstep (w : list S) (io : nat * O) : list S :=
  match nth_error w (fst io) with
  | Some s => set_nth (fst io) (step s (snd io)) w
  | None => w
  end.

Definition ops_of (i : nat) (sched : list (nat * O)) : list O :=
  map snd (filter (fun io => Nat.eqb (fst io) i) sched).

Lemma nth_set_nth_same (l : list S) : forall i x s, nth_error l i = Some s -> nth_error (set_nth i x l) i = Some x.
Proof.
  induction l as [|y l IH]; intros i x s H; destruct i; cbn in *; try discriminate; [reflexivity|exact (IH _ _ _ H)].
Qed.

Lemma nth_set_nth_other (l : list S) : forall i j x, i <> j -> nth_error (set_nth j x l) i = nth_error l i.
Proof.
  induction l as [|y l IH]; intros i j x Hn; destruct j, i; cbn; try congruence.
  apply IH. congruence.
Qed.

Theorem interleaving_is_per_world sched : forall w i s,
  nth_error w i = Some s ->
  nth_error (fold_left wstep sched w) i = Some (fold_left step (ops_of i sched) s).
Proof.
  induction sched as [|[j o] sched IH]; intros w i s H; cbn [fold_left ops_of filter map fst snd].
  - exact H.
  - unfold wstep at 2. cbn [fst snd]. destruct (nth_error w j) as [sj|] eqn:Ej.
    + destruct (Nat.eqb_spec j i) as [->|Hn].
      * rewrite Ej in H. injection H as ->. apply IH.
        exact (nth_set_nth_same w i _ s Ej).
      * apply IH. rewrite nth_set_nth_other by congruence. exact H.
    + destruct (Nat.eqb_spec j i) as [->|Hn]; [congruence|]. apply IH. exact H.
Qed.

End Product.
