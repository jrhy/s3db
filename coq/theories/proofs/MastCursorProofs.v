(* MastCursorProofs.v — the forward cursor of the node-level tree (Cursor.Min / Get / Forward) walks
   the in-order contents: from any valid position, Get answers with the head of what remains and
   Forward moves to its tail; a walk from Min over the whole tree returns exactly `flat`.
   Hypotheses: no linked node is empty (what every operation of Mast.v maintains below the root through
   mk_link; the root of a tree just created or loaded empty is an empty node, which min_scan allows) and
   the fuel of Min covers the depth of the tree. *)
From S3db Require Import Base KeyOrder Mast.
From S3db.proofs Require Import MastProofs.
Import ListNotations.
Local Open Scope nat_scope.

Section Cursor.
Context {V : Type}.
Notation mt := (mt V).
Notation ml := (ml V).
Notation path := (list (mt * nat)).

(* what is still to be visited from index i of a node: key i, the child after it, key i+1, ... *)
Fixpoint suffix_from (n : mt) (i : nat) : list (sval * V) :=
  match n, i with
  | MEnd _, _ => []
  | MCons _ k v r, O => (k, v) :: flat r
  | MCons _ _ _ r, S i' => suffix_from r i'
  end.

Lemma flat_first (n : mt) : exists l, link_at n 0 = Some l /\ flat n = flat_l l ++ suffix_from n 0.
Proof.
  destruct n as [l|l k v r]; exists l; (split; [reflexivity|]).
  - rewrite flat_MEnd. symmetry. apply app_nil_r.
  - apply flat_MCons.
Qed.

Lemma suffix_past (n : mt) : forall i, nkeys n <= i -> suffix_from n i = [].
Proof.
  induction n as [l|l k v r IH]; intros i Hi; [destruct i; reflexivity|].
  cbn [nkeys] in Hi. destruct i as [|i']; [lia|]. cbn [suffix_from]. apply IH. lia.
Qed.

Lemma suffix_step (n : mt) : forall i kv, key_at n i = Some kv ->
  exists l, link_at n (S i) = Some l /\ suffix_from n i = kv :: flat_l l ++ suffix_from n (S i).
Proof.
  induction n as [l0|l0 k v r IH]; intros i kv Hk; [destruct i; discriminate|].
  destruct i as [|i']; cbn [key_at] in Hk; [|exact (IH i' kv Hk)].
  injection Hk as <-. destruct (flat_first r) as (l & Hl & Hf). exists l. split; [exact Hl|].
  cbn [suffix_from]. rewrite Hf. reflexivity.
Qed.

Lemma key_at_lt (n : mt) : forall i, (exists kv, key_at n i = Some kv) <-> i < nkeys n.
Proof.
  induction n as [l|l k v r IH]; intros i.
  - cbn [nkeys]. split; [intros (kv & H); destruct i; discriminate|lia].
  - destruct i as [|i']; cbn [key_at nkeys].
    + split; [lia|intros _; eexists; reflexivity].
    + rewrite IH. lia.
Qed.

(* the remaining in-order sequence of a cursor position *)
Fixpoint rest (p : path) : list (sval * V) :=
  match p with
  | [] => []
  | (n, i) :: p' => suffix_from n i ++ rest p'
  end.

(* depth of a sub-tree, and "no linked node is empty" *)
Fixpoint depth (n : mt) : nat :=
  match n with
  | MEnd l => depth_l l
  | MCons l _ _ r => Nat.max (depth_l l) (depth r)
  end
with depth_l (l : ml) : nat :=
  match l with LNil => 0 | LNode c => S (depth c) end.

Fixpoint ne (n : mt) : Prop :=
  match n with
  | MEnd l => ne_l l
  | MCons l _ _ r => ne_l l /\ ne r
  end
with ne_l (l : ml) : Prop :=
  match l with LNil => True | LNode c => is_empty c = false /\ ne c end.

Lemma depth_MEnd (l : ml) : depth (MEnd l) = depth_l l. Proof. reflexivity. Qed.
Lemma depth_MCons (l : ml) k v r : depth (MCons l k v r) = Nat.max (depth_l l) (depth r). Proof. reflexivity. Qed.
Lemma depth_LNode (c : mt) : depth_l (LNode c) = S (depth c). Proof. reflexivity. Qed.
Lemma ne_MEnd (l : ml) : ne (MEnd l) = ne_l l. Proof. reflexivity. Qed.
Lemma ne_MCons (l : ml) k v r : ne (MCons l k v r) = (ne_l l /\ ne r). Proof. reflexivity. Qed.
Lemma ne_LNode (c : mt) : ne_l (LNode c) = (is_empty c = false /\ ne c). Proof. reflexivity. Qed.

Lemma first_key (c : mt) : is_empty c = false -> link_at c 0 = Some LNil -> 0 < nkeys c.
Proof. destruct c as [[|x]|l k v r]; cbn [is_empty link_at nkeys]; intros; try discriminate; lia. Qed.

Lemma link_at_sub (n : mt) : forall i l, link_at n i = Some l -> depth_l l <= depth n /\ (ne n -> ne_l l).
Proof.
  induction n as [l0|l0 k v r IH]; intros [|i] l H; cbn [link_at] in H; try discriminate;
    rewrite ?depth_MEnd, ?depth_MCons, ?ne_MEnd, ?ne_MCons.
  1, 2: injection H as <-; split; [lia|tauto].
  destruct (IH i l H) as [Hd Hn]. split; [lia|tauto].
Qed.

(* a valid position: the top entry addresses a key; every node on the path links no empty node and
   is less deep than the fuel *)
Definition top_ok (p : path) : Prop :=
  match p with [] => True | (n, i) :: _ => i < nkeys n end.
Definition path_ok (fuel : nat) (p : path) : Prop :=
  Forall (fun e => ne (fst e) /\ depth (fst e) < fuel) p.

Lemma path_ok_cons fuel (n : mt) i (q : path) :
  path_ok fuel ((n, i) :: q) <-> ne n /\ depth n < fuel /\ path_ok fuel q.
Proof. unfold path_ok. rewrite Forall_cons_iff. apply and_assoc. Qed.

(* p is a valid position and t is what remains to be visited from it.  Every cursor operation below is
   described by the position it reaches in these terms, so that validity and contents come out of
   one induction over the operation. *)
Definition remains fuel (p : path) (t : list (sval * V)) : Prop :=
  top_ok p /\ path_ok fuel p /\ rest p = t.

Lemma remains_here fuel (p : path) : top_ok p -> path_ok fuel p -> remains fuel p (rest p).
Proof. intros Ht Hp. exact (conj Ht (conj Hp eq_refl)). Qed.

Lemma up_fwd_remains fuel (p : path) : path_ok fuel p -> remains fuel (c_up_fwd p) (rest p).
Proof.
  induction p as [|[n i] p IH]; intros H; [exact (remains_here fuel [] I H)|].
  cbn [c_up_fwd]. destruct (Nat.ltb_spec i (nkeys n)) as [Hi|Hi].
  - apply remains_here; [exact Hi|exact H].
  - cbn [rest]. rewrite (suffix_past n i Hi). apply IH. exact (Forall_inv_tail H).
Qed.

(* Min from the top of a freshly entered sub-tree; F is the fuel the path is valid for, f what is left of it *)
Lemma min_remains F : forall f (c : mt) (q : path),
  depth_l (LNode c) <= f -> f <= F -> ne_l (LNode c) -> path_ok F q ->
  remains F (c_min f ((c, 0) :: q)) (flat c ++ rest q).
Proof.
  induction f as [|f IH]; intros c q Hd HF Hn Hq; rewrite depth_LNode in Hd; [lia|].
  rewrite ne_LNode in Hn. destruct Hn as [He Hn].
  assert (Hc : path_ok F ((c, 0) :: q)) by (apply path_ok_cons; split; [exact Hn|split; [lia|exact Hq]]).
  cbn [c_min]. destruct (flat_first c) as (l & Hl & ->). rewrite Hl.
  destruct (link_at_sub c 0 l Hl) as [Hdl Hnl]. destruct l as [|c1].
  - apply remains_here; [exact (first_key c He Hl)|exact Hc].
  - rewrite flat_LNode, <- app_assoc. apply IH; [lia|lia|exact (Hnl Hn)|exact Hc].
Qed.

Theorem cursor_step fuel (p : path) t : remains fuel p t ->
  match c_get p with
  | Some kv => exists t', t = kv :: t' /\ remains fuel (c_forward fuel p) t'
  | None => t = []
  end.
Proof.
  intros (Ht & Hp & <-). destruct p as [|[n i] p']; [reflexivity|]. cbn [top_ok c_get c_forward] in *.
  apply key_at_lt in Ht. destruct Ht as (kv & Hk). rewrite Hk.
  destruct (suffix_step n i kv Hk) as (l & Hl & Hs). rewrite Hl.
  exists (flat_l l ++ rest ((n, S i) :: p')). split; [cbn [rest]; rewrite Hs, <- app_comm_cons, <- app_assoc; reflexivity|].
  apply path_ok_cons in Hp. destruct Hp as (Hn & Hd & Hp').
  assert (Hq : path_ok fuel ((n, S i) :: p')) by (apply path_ok_cons; auto).
  destruct (link_at_sub n (S i) l Hl) as [Hdl Hnl]. destruct l as [|c].
  - (* no child after the key: the branch on S i is the first round of c_up_fwd *)
    exact (up_fwd_remains fuel _ Hq).
  - rewrite flat_LNode. apply min_remains; [lia|lia|exact (Hnl Hn)|exact Hq].
Qed.

Theorem forward_is_tail fuel (p : path) kv : top_ok p -> path_ok fuel p -> c_get p = Some kv ->
  rest p = kv :: rest (c_forward fuel p) /\ top_ok (c_forward fuel p).
Proof.
  intros Ht Hp Hk. pose proof (cursor_step fuel p (rest p) (remains_here fuel p Ht Hp)) as H.
  rewrite Hk in H. destruct H as (t' & Hr & Ht' & _ & <-). split; assumption.
Qed.

Theorem walk_remains fuel : forall steps (p : path) t, remains fuel p t -> length t < steps ->
  c_walk_fwd steps fuel p = t.
Proof.
  induction steps as [|s IH]; intros p t H Hl; [lia|]. cbn [c_walk_fwd].
  apply cursor_step in H. destruct (c_get p) as [kv|]; [|symmetry; exact H].
  destruct H as (t' & -> & H). f_equal. apply IH; [exact H|]. cbn [length] in Hl. lia.
Qed.

(* the scan of a whole tree: Cursor(), Min, then Get / Forward until the cursor is exhausted.  The root
   alone may be an empty node (a tree just created or loaded empty): the scan then ends at once. *)
Theorem min_scan fuel steps (m : mast V) :
  ne (node_of (m_root m)) -> depth (node_of (m_root m)) < fuel -> length (mast_flat m) < steps ->
  c_walk_fwd steps fuel (c_min fuel (mast_cursor m)) = mast_flat m.
Proof.
  unfold mast_cursor, mast_flat. destruct (m_root m) as [|n]; cbn [node_of]; intros Hn Hd Hl.
  - destruct steps, fuel; reflexivity.
  - destruct (is_empty n) eqn:He.
    + destruct n as [[|x]|]; try discriminate. destruct steps, fuel; reflexivity.
    + rewrite flat_LNode in Hl |- *. apply (walk_remains fuel); [|exact Hl].
      rewrite <- (app_nil_r (flat n)). apply min_remains; [rewrite depth_LNode; lia|lia| |constructor].
      rewrite ne_LNode. split; assumption.
Qed.

Theorem full_scan_is_flat fuel steps (m : mast V) :
  ne_l (m_root m) -> depth_l (m_root m) <= fuel -> length (mast_flat m) < steps ->
  c_walk_fwd steps fuel (c_min fuel (mast_cursor m)) = mast_flat m.
Proof.
  destruct (m_root m) as [|n] eqn:R; intros Hn Hd Hl.
  - unfold mast_cursor, mast_flat. rewrite R. destruct steps, fuel; reflexivity.
  - rewrite ne_LNode in Hn. rewrite depth_LNode in Hd.
    apply min_scan; rewrite ?R; cbn [node_of]; [apply Hn|lia|exact Hl].
Qed.

End Cursor.
