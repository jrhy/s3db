(* OpenProofs.v — what kv.Open computes: the merge, in the order the versions were visited, of
   the trees of all versions under current/ (mergeRoots), for a bucket in which every version
   under current/ is well-formed and has its root node ([opens] relates a version name to the
   tree merged for it).  Proved once, as a weakest precondition
   under any plan that never reports a stored object as missing: when no request fails the open
   returns that merge (this file), under transport faults it returns it or fails (C14.v, through
   FaultProofs.spec_of_wp).
   Together with MergeAllProofs/ConvergenceProofs (the fold is the per-key minimum-rank value,
   independent of the order) this gives the "merged view" of a bucket. *)
From S3db Require Import Base RowMerge Tree Store KvProto.
From S3db.proofs Require Import TreeProofs MergeAllProofs ProtoProofs ExecProofs NamedProofs.
Import ListNotations.
Open Scope Z_scope.

Section Open.
Context {V : Type}.
Variable c : cfg (V := V).
Variable oeq : obj V -> obj V -> bool.

Notation ctree := (tree (cval V)).

(* the version object stored under [n], looked for under the prefixes [ps] in turn; a node object
   found under a version prefix ends the search with nothing *)
Fixpoint ver_in (b : bucket V) (ps : list pfx) (n : name) : option vobj :=
  match ps with
  | [] => None
  | p :: ps' => match o_get n (sel p b) with
                | Some (OVer v) => Some v
                | Some (ONode _) => None
                | None => ver_in b ps' n
                end
  end.
Definition ver_cur (b : bucket V) (n : name) : option vobj := ver_in b [PCur] n.
Definition node_at (b : bucket V) (l : name) : option ctree :=
  match o_get l (b_node b) with Some (ONode t) => Some t | _ => None end.
Definition tree_of (b : bucket V) (v : vobj) : option ctree :=
  match v_link v with None => Some [] | Some l => node_at b l end.

(* a version Open can merge: written with this configuration, root node present *)
Definition good_ver (b : bucket V) (v : vobj) : Prop :=
  v_mode v = c_mode c /\ v_bf v = c_bf c /\ exists t, tree_of b v = Some t.

(* values of the trees: a domain on which the configured merge function is total and closed *)
Variable S : cval V -> Prop.
Variable g : cval V -> cval V -> cval V.
Hypothesis f_total : forall x y, S x -> S y -> c_merge c x y = Some (g x y).
Hypothesis g_closed : forall x y, S x -> S y -> S (g x y).

Definition good_tree (t : ctree) : Prop := wf t /\ vals_in S t.

Definition versions_ok_in (b : bucket V) (ps : list pfx) (names : list name) (vs : list vobj) (ts : list ctree) : Prop :=
  Forall2 (fun n v => ver_in b ps n = Some v /\ good_ver b v) names vs /\
  Forall2 (fun v t => tree_of b v = Some t /\ good_tree t) vs ts.
Definition versions_ok b := versions_ok_in b [PCur].

(* [n], looked for under [ps], names a version Open can merge, and [t] is that version's tree.
   mergeRoots compares branch factors among the versions only: [z] need not be the configured one *)
Definition opens (z : Z) (b : bucket V) (ps : list pfx) (n : name) (t : ctree) : Prop :=
  exists v, ver_in b ps n = Some v /\ v_mode v = c_mode c /\ v_bf v = z /\ tree_of b v = Some t /\ good_tree t.

Lemma versions_ok_opens b ps names vs ts : versions_ok_in b ps names vs ts -> Forall2 (opens (c_bf c) b ps) names ts.
Proof.
  intros [F1 F2]. revert ts F2.
  induction F1 as [|n v names vs [Hv (Hm & Hb & _)] _ IH]; intros ts F2; inversion F2 as [|? t ? ts' [Ht Hgt] F2']; subst; constructor.
  - exists v. auto.
  - exact (IH _ F2').
Qed.

Lemma merge_into_total acc gr : good_tree acc -> good_tree gr ->
  exists t, merge_into (c_merge c) (c_veq c) acc gr = Some t /\ good_tree t.
Proof.
  intros [W1 V1] [W2 V2].
  destruct (merge_into_pointwise (c_merge c) g (c_veq c) S f_total g_closed gr acc W1 W2 V1 V2)
    as (t & Hm & Hw & Hv & _).
  exists t. split; [exact Hm|split; assumption].
Qed.

(* Open under a plan whose fault answers are among [F], none of them "no such object";
   [fl]: the open may fail (it has to be allowed to when the plan may answer with an error) *)
Variable F : outcome -> Prop.
Variable fl : Prop.
Hypothesis no_gone : ~ F OGone.
Hypothesis err_fl : F OErr -> fl.
Notation wp := (@wp V oeq F _).
Notation reads := (@reads V _ fl).

Lemma reads_get {A} b pf n (k : resp V -> Store.prog V A) (Q : A -> Prop) :
  wp (k (match o_get n (sel pf b) with Some o => RObj o | None => RNoSuchKey end)) (reads b Q) b ->
  (fl -> wp (k RErr) (reads b Q) b) ->
  wp (Do (RGet pf n) k) (reads b Q) b.
Proof. intros H1 H2. apply reads_req; auto. Qed.

Lemma reads_list {A} b pf (k : resp V -> Store.prog V A) (Q : A -> Prop) :
  wp (k (RNames (o_names (sel pf b)))) (reads b Q) b ->
  (fl -> wp (k RErr) (reads b Q) b) ->
  wp (Do (RList pf) k) (reads b Q) b.
Proof. intros H1 H2. apply reads_req; auto. Qed.

(* a node that is there is what a GET of it answers with *)
Lemma reads_node {A b l t} {k : resp V -> Store.prog V A} {Q : A -> Prop} : node_at b l = Some t ->
  wp (k (RObj (ONode t))) (reads b Q) b -> (fl -> wp (k RErr) (reads b Q) b) ->
  wp (Do (RGet PNode l) k) (reads b Q) b.
Proof.
  intros Hn H1 H2. apply reads_get; [|exact H2]. unfold node_at in Hn. cbn [sel].
  destruct (o_get l (b_node b)) as [[t0|v0]|]; try discriminate. injection Hn as ->. exact H1.
Qed.

(* loading a version object answers with what the bucket holds; where that is nothing, a node
   object may be in the way, and the load fails *)
Lemma load_root_wp b ps n : (ver_in b ps n = None -> fl) ->
  wp (load_root_any ps n) (reads b (fun r => r = ver_in b ps n)) b.
Proof.
  induction ps as [|p ps IH]; intros Hf; cbn [load_root_any ver_in] in *; [apply reads_ret; reflexivity|].
  apply reads_get; [|intros H; apply reads_fail; exact H].
  destruct (o_get n (sel p b)) as [[t|v]|].
  - apply reads_fail, Hf. reflexivity.
  - apply reads_ret. reflexivity.
  - exact (IH Hf).
Qed.

(* a failed read of the root node is reported as a value, not as a failure *)
Lemma load_tree_wp {b v t} : v_mode v = c_mode c -> tree_of b v = Some t ->
  wp (load_tree c v) (reads b (fun r => r = LTree t \/ fl /\ r = LErr E_LOADTREE)) b.
Proof.
  intros Hm Ht. unfold load_tree, cfg_mode_ok. rewrite Hm, Z.eqb_refl. cbn [negb].
  unfold tree_of in Ht. destruct (v_link v) as [l|]; [|injection Ht as <-; apply reads_ret; auto].
  apply (reads_node Ht); [|intros Hf]; apply reads_ret; auto.
Qed.

(* the merge of the trees in list order; no version at all is the empty tree *)
Definition view_fold (ts : list ctree) : option ctree :=
  match ts with [] => Some [] | t :: ts' => MergeAllProofs.merge_list (c_merge c) (c_veq c) t ts' end.

Definition acc_tree (acc : option (macc (V := V))) : ctree := match acc with Some a => a_tree a | None => [] end.
Definition acc_names (acc : option (macc (V := V))) : list name := match acc with Some a => a_msources a | None => [] end.

(* mergeRoots over versions that are all present, from the accumulator [acc] (none at the start):
   the accumulated tree is the fold of the tree merge over the accumulator's tree and the
   versions' trees, in the order visited; no accumulator at the end stands for the empty tree *)
Definition loop_post (acc : option (macc (V := V))) (ts : list ctree) (names : list name)
           (r : option (macc (V := V)) * list (name * vobj)) : Prop :=
  view_fold (match acc with Some a => a_tree a :: ts | None => ts end) = Some (acc_tree (fst r)) /\
  acc_names (fst r) = acc_names acc ++ names.

(* an accumulator mergeRoots can go on from: the branch factor of the versions, this configuration's
   mode, and, while it is a stored version adopted as it was, its root node present *)
Definition acc_ok (z : Z) (b : bucket V) (a : macc (V := V)) : Prop :=
  a_bf a = z /\ a_mode a = c_mode c /\ good_tree (a_tree a) /\
  (a_inmem a = false -> forall l, a_link a = Some l -> exists t, node_at b l = Some t).

(* Clone() finds the accumulator's root node (or reports a failed read as the value 2) *)
Lemma clone_acc_wp {skip z b a} : acc_ok z b a -> wp (clone_acc skip a) (reads b (fun cl => cl = 0 \/ fl /\ cl = 2)) b.
Proof.
  intros (_ & _ & _ & Alink). unfold clone_acc. destruct (a_inmem a) eqn:IM; [apply reads_ret; auto|].
  destruct (a_link a) as [l|] eqn:AL; [|apply reads_ret; auto].
  destruct (Alink eq_refl l eq_refl) as (t0 & Hn).
  apply (reads_node Hn); [|intros Hf]; apply reads_ret; auto.
Qed.

(* the diff loads the graft's root twice; only the second answer counts *)
Lemma reload_graft_wp {b v t} : tree_of b v = Some t ->
  wp (reload_graft v) (reads b (fun ok : bool => ok = true \/ fl)) b.
Proof.
  intros Ht. unfold reload_graft. unfold tree_of in Ht. destruct (v_link v) as [l|]; [|apply reads_ret; auto].
  (* whatever the first load answers, the second finds the node *)
  apply reads_get; [|intros _]; (apply (reads_node Ht); [|intros Hf]; apply reads_ret; auto).
Qed.

(* a test that fails: what decides it is rewritten in the goal [t = false], not in the rest of the program *)
Lemma wp_else {A} (t : bool) (p q : Store.prog V A) Q b : t = false -> wp q Q b -> wp (if t then p else q) Q b.
Proof. intros ->. auto. Qed.

Theorem merge_loop_wp {ps skip z b names ts} : Forall2 (opens z b ps) names ts -> forall acc merged,
  match acc with Some a => acc_ok z b a | None => True end ->
  wp (merge_loop c ps skip names acc merged) (reads b (loop_post acc ts names)) b.
Proof.
  induction 1 as [|key t rest ts' (v & Hv & Hmode & Hbf & Ht & Hgt) _ IH]; intros acc merged Ha.
  - cbn [merge_loop]. apply reads_ret. split; [destruct acc; reflexivity|symmetry; apply app_nil_r].
  - rewrite merge_loop_cons.
    eapply reads_bind; [apply load_root_wp; rewrite Hv; discriminate|]. intros ro E. rewrite Hv in E. subst ro.
    eapply reads_bind; [apply (load_tree_wp Hmode Ht)|].
    intros lt [->|[Hf ->]]; cbn beta iota; [|apply reads_fail; exact Hf].
    destruct acc as [a|].
    + pose proof Ha as (Abf & Amode & Atree & _).
      apply wp_else; [rewrite Abf, Hbf, Z.eqb_refl; reflexivity|].
      eapply reads_bind; [apply (clone_acc_wp Ha)|]. intros cl [->|[Hf ->]]; [|apply reads_fail; exact Hf].
      change (0 =? 2) with false. change (0 =? 1) with false. cbn iota.
      apply wp_else; [rewrite Amode, Hmode, Z.eqb_refl; reflexivity|].
      eapply reads_bind; [apply (reload_graft_wp Ht)|].
      intros ok Hok. destruct ok; cbn [negb]; [|destruct Hok as [Hok|Hf]; [discriminate|apply reads_fail; exact Hf]].
      destruct (merge_into_total (a_tree a) t Atree Hgt) as (t1 & Hm1 & Hg1).
      rewrite Hm1.
      eapply reads_conseq; [|apply IH].
      * intros r. unfold loop_post. cbn [grafted a_tree acc_names a_msources view_fold MergeAllProofs.merge_list].
        rewrite Hm1, <- app_assoc. auto.
      * unfold acc_ok. cbn [grafted a_bf a_mode a_tree a_inmem a_link].
        repeat split; try assumption; try apply Hg1. intros Hf; discriminate.
    + (* the first version is adopted as it is; the postcondition from there computes to this one *)
      apply (IH (Some (adopted key v t))). unfold acc_ok. cbn [adopted a_bf a_mode a_tree a_inmem a_link].
      split; [exact Hbf|]. split; [exact Hmode|]. split; [exact Hgt|].
      intros _ l Hl. unfold tree_of in Ht. rewrite Hl in Ht. exists t. exact Ht.
Qed.

Definition tree_named (b : bucket V) (n : name) : option ctree :=
  match ver_cur b n with Some v => tree_of b v | None => None end.

Lemma opens_named z b n t : opens z b [PCur] n t -> tree_named b n = Some t.
Proof. intros (v & Hv & _ & _ & Ht & _). unfold tree_named, ver_cur. rewrite Hv. exact Ht. Qed.

(* every version under current/ can be merged *)
Definition bucket_ok (b : bucket V) : Prop :=
  forall n, o_get n (b_cur b) <> None ->
    exists v t, ver_cur b n = Some v /\ good_ver b v /\ tree_of b v = Some t /\ good_tree t.

Lemma bucket_ok_opens b : bucket_ok b <-> forall n, o_get n (b_cur b) <> None -> exists t, opens (c_bf c) b [PCur] n t.
Proof.
  split; intros H n Hn.
  - destruct (H n Hn) as (v & t & Hv & (Hm & Hb & _) & Ht & Hg). exists t, v. auto.
  - destruct (H n Hn) as (t & v & Hv & Hm & Hb & Ht & Hg). exists v, t. unfold good_ver. eauto 7.
Qed.

Lemma opens_cur_first z b ps n t : opens z b [PCur] n t -> opens z b (PCur :: ps) n t.
Proof.
  intros (v & Hv & O). exists v. split; [|exact O]. revert Hv. cbn [ver_in sel].
  destruct (o_get n (b_cur b)) as [[t0|v0]|]; try discriminate. auto.
Qed.

Lemma versions_of_names z b ps names : (forall n, In n names -> exists t, opens z b [PCur] n t) ->
  exists ts, Forall2 (opens z b (PCur :: ps)) names ts /\ Forall2 (fun n t => tree_named b n = Some t) names ts.
Proof.
  induction names as [|n names IH]; intros Hin.
  - exists []. split; constructor.
  - destruct IH as (ts & F1 & F2); [intros x Hx; apply Hin; right; exact Hx|].
    destruct (Hin n (or_introl eq_refl)) as (t & O).
    exists (t :: ts). split; constructor; auto; [exact (opens_cur_first _ b _ n t O)|exact (opens_named _ b n t O)].
Qed.

(* a read-only open of the whole bucket: the merge of every version under current/, bucket untouched *)
Theorem open_ro_wp z when order corder b :
  (forall n, o_get n (b_cur b) <> None -> exists t, opens z b [PCur] n t) ->
  wp (open c true None when order corder)
     (reads b (fun h => exists ts,
        Forall2 (fun n t => tree_named b n = Some t) (apply_order order (o_names (b_cur b))) ts /\
        view_fold ts = Some (h_tree h) /\
        h_msources h = apply_order order (o_names (b_cur b)) /\ h_ro h = true)) b.
Proof.
  intros Hb. unfold open. cbn [negb andb].
  set (names := apply_order order (o_names (b_cur b))).
  destruct (versions_of_names z b [PMerged] names) as (ts & Hok & Hts).
  { intros n Hn. apply Hb, in_o_names. exact (proj1 (in_apply_order _ _ _) Hn). }
  eapply reads_bind with (P := fun x => x = (names, [PCur; PMerged], true)).
  { apply reads_list; [apply reads_ret; reflexivity|intros Hf; apply reads_fail; exact Hf]. }
  intros x ->.
  eapply reads_bind; [exact (merge_loop_wp Hok None _ I)|].
  intros [acc merged] [Hv Hms]. apply reads_ret.
  exists ts. split; [exact Hts|]. destruct acc as [a|]; repeat split; assumption.
Qed.

(* a read-only open restricted to given versions (OnlyVersions; s3db_changes, TraceHistory):
   looks under current/ then merged/ (the versions are assumed present: [opens]) *)
Theorem open_hist_wp vsn when order corder z ts b :
  Forall2 (opens z b [PCur; PMerged]) (apply_order_multi order vsn) ts ->
  wp (open c true (Some vsn) when order corder)
     (reads b (fun h => view_fold ts = Some (h_tree h) /\ h_ro h = true)) b.
Proof.
  intros Hok. unfold open. cbn [negb andb bind].
  eapply reads_bind; [exact (merge_loop_wp Hok None _ I)|].
  intros [acc merged] [Hv _]. apply reads_ret. destruct acc as [a|]; (split; [exact Hv|reflexivity]).
Qed.

End Open.

Section FaultFree.
Context {V : Type}.
Variable c : cfg (V := V).
Variable oeq : obj V -> obj V -> bool.
Variable S : cval V -> Prop.
Variable g : cval V -> cval V -> cval V.
Hypothesis f_total : forall x y, S x -> S y -> c_merge c x y = Some (g x y).
Hypothesis g_closed : forall x y, S x -> S y -> S (g x y).
Notation exec0 := (@exec V oeq [] None _).

(* without faults a program that only reads returns *)
Lemma reads_exec0 {A} b (p : Store.prog V A) (P : A -> Prop) muts tr b' r tr' muts' :
  wp oeq (eq OOk) p (reads False b P) b -> exec0 muts b p tr b' r tr' muts' ->
  b' = b /\ exists a, r = Done a /\ P a.
Proof.
  intros W X. destruct (wp_sound oeq [] None (eq OOk) (fun _ _ => eq_refl) X W)
    as (_ & _ & -> & [H|([] & _)]). auto.
Qed.

Theorem open_ro_spec {when order corder b muts tr b' r tr' muts'} :
  bucket_ok c S b ->
  exec0 muts b (open c true None when order corder) tr b' r tr' muts' ->
  b' = b /\
  exists h ts, r = Done h /\
    Forall2 (fun n t => tree_named b n = Some t) (apply_order order (o_names (b_cur b))) ts /\
    view_fold c ts = Some (h_tree h) /\
    h_msources h = apply_order order (o_names (b_cur b)) /\ h_ro h = true.
Proof.
  (* the two [discriminate]s: the only answer allowed, OOk, is neither OGone nor OErr *)
  intros Hb X. eapply reads_exec0 in X; [|apply (open_ro_wp c oeq S g f_total g_closed) with (z := c_bf c); [discriminate|discriminate|exact (proj1 (bucket_ok_opens c S b) Hb)]].
  destruct X as (-> & h & -> & ts & H). eauto.
Qed.

Theorem open_hist_spec {vsn when order corder z ts b muts tr b' r tr' muts'} :
  Forall2 (opens c S z b [PCur; PMerged]) (apply_order_multi order vsn) ts ->
  exec0 muts b (open c true (Some vsn) when order corder) tr b' r tr' muts' ->
  b' = b /\ exists h, r = Done h /\ view_fold c ts = Some (h_tree h) /\ h_ro h = true.
Proof.
  intros Hok X. eapply reads_exec0 in X; [|eapply (open_hist_wp c oeq S g f_total g_closed); [discriminate|discriminate|exact Hok]].
  exact X.
Qed.

End FaultFree.

Section Snapshot.
Context {V : Type}.
Variable c : cfg (V := V).
Variable oeq : obj V -> obj V -> bool.
Hypothesis oeq_eq : forall a b, oeq a b = true -> a = b.
Variable S : cval V -> Prop.
Variable g : cval V -> cval V -> cval V.
Hypothesis f_total : forall x y, S x -> S y -> c_merge c x y = Some (g x y).
Hypothesis g_closed : forall x y, S x -> S y -> S (g x y).

Lemma ver_in_stored (b : bucket V) ps n v : ver_in b ps n = Some v -> exists p, o_get n (sel p b) = Some (OVer v).
Proof.
  induction ps as [|p ps IH]; cbn [ver_in]; [discriminate|].
  destruct (o_get n (sel p b)) as [[t|v0]|] eqn:E; try discriminate.
  - intros H. injection H as <-. exists p. exact E.
  - exact IH.
Qed.

(* Nodes are named by content, so a node that is still there is the node it was; with it the
   tree of a version object, and what [bucket_ok] says of a name whose object is unchanged. *)
Lemma node_at_kept (b b' : bucket V) l t :
  Named b -> reach oeq b b' -> o_get l (b_node b') <> None -> node_at b l = Some t -> node_at b' l = Some t.
Proof.
  intros HN R Hp. unfold node_at. destruct (o_get l (b_node b)) as [o|] eqn:E; [|discriminate].
  destruct (o_get l (b_node b')) as [o'|] eqn:E'; [|contradiction].
  rewrite (name_immutable oeq oeq_eq b b' PNode PNode l _ _ HN R E E'). auto.
Qed.

Lemma tree_of_stable (b b' : bucket V) v t t' :
  Named b -> reach oeq b b' -> tree_of b v = Some t -> tree_of b' v = Some t' -> t = t'.
Proof.
  intros HN R H1 H2. unfold tree_of in *. destruct (v_link v) as [l|]; [|congruence].
  rewrite (node_at_kept b b' l t HN R) in H2; [congruence| |exact H1].
  unfold node_at in H2. destruct (o_get l (b_node b')); discriminate.
Qed.

Section Kept.
Variables b b' : bucket V.
Hypothesis (HN : Named b) (R : reach oeq b b').
Hypothesis nodes_kept : forall l, o_get l (b_node b) <> None -> o_get l (b_node b') <> None.

Lemma node_kept l t : node_at b l = Some t -> node_at b' l = Some t.
Proof.
  intros H. apply (node_at_kept b b' l t HN R); [|exact H].
  apply nodes_kept. unfold node_at in H. destruct (o_get l (b_node b)); discriminate.
Qed.

Lemma tree_of_kept v t : tree_of b v = Some t -> tree_of b' v = Some t.
Proof. unfold tree_of. destruct (v_link v); [apply node_kept|auto]. Qed.

Lemma opens_kept z ps x t : ver_in b' ps x = ver_in b ps x -> opens c S z b ps x t -> opens c S z b' ps x t.
Proof.
  intros E (v & Hv & Hm & Hb & Ht & Hg). apply tree_of_kept in Ht. exists v. rewrite E. auto.
Qed.

Lemma version_kept x : bucket_ok c S b -> o_get x (b_cur b') = o_get x (b_cur b) ->
  tree_named b' x = tree_named b x /\ (o_get x (b_cur b') <> None -> exists t, opens c S (c_bf c) b' [PCur] x t).
Proof.
  intros Hb Hx. assert (Ev : ver_cur b' x = ver_cur b x) by (unfold ver_cur; cbn [ver_in sel]; rewrite Hx; reflexivity).
  rewrite Hx. destruct (o_get x (b_cur b)) eqn:E.
  - destruct (proj1 (bucket_ok_opens c S b) Hb x ltac:(congruence)) as (t & O). pose proof (opens_kept _ [PCur] x t Ev O) as O'.
    split; [|intros _; exists t; exact O']. rewrite (opens_named c S _ b' x t O'). symmetry. exact (opens_named c S _ b x t O).
  - unfold tree_named. rewrite Ev. unfold ver_cur. cbn [ver_in sel]. rewrite E. split; [reflexivity|contradiction].
Qed.
End Kept.

Lemma opens_stable {b b' : bucket V} {z z' ps n t t'} :
  Named b -> reach oeq b b' -> opens c S z b ps n t -> opens c S z' b' ps n t' -> t = t'.
Proof.
  intros HN R (v & Hv & _ & _ & Ht & _) (v' & Hv' & _ & _ & Ht' & _).
  destruct (ver_in_stored _ _ _ _ Hv) as (p & G). destruct (ver_in_stored _ _ _ _ Hv') as (p' & G').
  pose proof (name_immutable oeq oeq_eq b b' p p' n _ _ HN R G G') as E. injection E as <-.
  exact (tree_of_stable b b' v t t' HN R Ht Ht').
Qed.

Lemma versions_stable {b b' : bucket V} {z z' ps names ts} : Named b -> reach oeq b b' ->
  Forall2 (opens c S z b ps) names ts -> forall ts', Forall2 (opens c S z' b' ps) names ts' -> ts = ts'.
Proof.
  intros HN R. induction 1 as [|n t names ts O _ IH]; intros ts0 F'; inversion F' as [|? t' ? ts' O' Fr]; subst; [reflexivity|].
  f_equal; [exact (opens_stable HN R O O')|exact (IH _ Fr)].
Qed.

Notation exec0 := (@exec V oeq [] None _).

(* A version name denotes an immutable snapshot (C11): if a list of versions can be opened
   (read-only, OnlyVersions) in a bucket b and again in any bucket b' reached from b by any history
   of well-named programs (commits, opens, merges, refreshes, history deletion — under any fault
   plans and crash points), both opens return the same tree.  Objects may have moved from
   current/ to merged/ in between. *)
Theorem snapshot_immutable {vsn order when when' corder corder'} {b b' : bucket V} {vs ts vs' ts'
        m1 tr1 b1 r1 tr1' m1' m2 tr2 b2 r2 tr2' m2'} :
  Named b -> reach oeq b b' ->
  versions_ok_in c S b [PCur; PMerged] (apply_order_multi order vsn) vs ts ->
  versions_ok_in c S b' [PCur; PMerged] (apply_order_multi order vsn) vs' ts' ->
  exec0 m1 b (open c true (Some vsn) when order corder) tr1 b1 r1 tr1' m1' ->
  exec0 m2 b' (open c true (Some vsn) when' order corder') tr2 b2 r2 tr2' m2' ->
  exists h h', r1 = Done h /\ r2 = Done h' /\ h_tree h = h_tree h'.
Proof.
  intros HN R Hok Hok' X1 X2. apply versions_ok_opens in Hok, Hok'.
  pose proof (versions_stable HN R Hok _ Hok') as E. subst ts'.
  destruct (open_hist_spec c oeq S g f_total g_closed Hok X1) as (_ & h & -> & Hv & _).
  destruct (open_hist_spec c oeq S g f_total g_closed Hok' X2) as (_ & h' & -> & Hv' & _).
  exists h, h'. repeat split. congruence.
Qed.

End Snapshot.
