(* MastNeProofs.v — "no linked node is empty" (kept by every operation: MastInvProofs, MastDelProofs)
   joins the invariant of the handle; the level discipline bounds the depth of the tree by its height
   (MastLevelProofs.lvr_depth), so with MastCursorProofs: on every tree reached from the empty tree by
   Inserts and Deletes, the ascending scan (Cursor, Min, then Get / Forward) returns exactly the
   in-order contents. *)
From S3db Require Import Base KeyOrder Tree Mast.
From S3db.proofs Require Import TreeProofs MastProofs MastLevelProofs MastInvProofs MastDelProofs MastCursorProofs.
Import ListNotations.
Local Open Scope nat_scope.

Section Ne.
Context {V : Type}.
Notation mt := (mt V).
Notation ml := (ml V).

(* a round of the grow loop that promotes at least one key gives a root that is not empty *)
Lemma grow_build_not_empty (rest : list (sval * V * mt)) p : rest <> [] -> is_empty (grow_build p rest) = false.
Proof. destruct rest as [|[[k v] p'] rest]; [congruence|reflexivity]. Qed.

(* Insert and Delete of the handle link no empty node below the root, whatever the keys and their layers *)
Lemma mast_insert_ne (m m' : mast V) k v : ne (node_of (m_root m)) -> mast_insert m k v = Some m' ->
  ne (node_of (m_root m')).
Proof.
  intros Hn E. destruct (mast_insert_keeps (fun _ => ne) m m' k v) as (n & ad & Ei & H); [intros h x; apply grow_ne|exact E|].
  epose proof (proj1 (ins_keeps (klayer (m_bf m))) _ _ k v) as K. rewrite Ei in K.
  exact (proj1 (H (proj2 (proj1 K) Hn))).
Qed.

Lemma mast_delete_ne (m m' : mast V) k : ne (node_of (m_root m)) -> mast_delete m k = Some m' ->
  ne (node_of (m_root m')).
Proof.
  intros Hn Hd. destruct (mast_delete_keeps (fun _ => ne) m m' k) as (n' & E & H); [intros h x; apply shrink_ne|exact Hd|].
  epose proof (proj1 (del_keeps (klayer (m_bf m))) _ _ k) as K. rewrite E in K.
  exact (proj1 (H (proj2 K Hn))).
Qed.

End Ne.

Section Scan.
Context {V : Type}.
Variable bf : Z.
Variable P : sval -> Prop.
Notation lay := (klayer bf).
Hypothesis P_layers : forall a b, P a -> P b -> order_t a b = Eq -> lay a = lay b.
Hypothesis P_safe : forall a, P a -> D a.

(* the invariant of MastInvProofs, and no linked node below the root is empty *)
Definition MInv2 (m : mast V) : Prop := MInv bf P m /\ ne (node_of (m_root m)).

Theorem mast_insert_keeps_inv2 (m : mast V) k v : MInv2 m -> P k ->
  exists m', mast_insert m k v = Some m' /\ MInv2 m' /\ mast_flat m' = t_insert k v (mast_flat m).
Proof.
  intros [Hm Hn] Hk.
  destruct (mast_insert_keeps_invariant bf P P_layers P_safe m k v Hm Hk) as (m' & E & Hm' & Hf).
  exists m'. exact (conj E (conj (conj Hm' (mast_insert_ne m m' k v Hn E)) Hf)).
Qed.

Theorem mast_delete_keeps_inv2 (m m' : mast V) k : MInv2 m -> P k -> mast_delete m k = Some m' ->
  MInv2 m' /\ mast_flat m' = t_delete k (mast_flat m).
Proof.
  intros [Hm Hn] Hk Hd.
  destruct (mast_delete_keeps_invariant bf P P_safe m m' k Hm Hk Hd) as (Hm' & Hf).
  exact (conj (conj Hm' (mast_delete_ne m m' k Hn Hd)) Hf).
Qed.

(* the ascending scan of a tree that meets the invariant: Cursor, Min, then Get / Forward *)
Theorem scan_of_invariant_tree (m : mast V) steps : MInv2 m -> length (mast_flat m) < steps ->
  c_walk_fwd steps (S (m_height m)) (c_min (S (m_height m)) (mast_cursor m)) = mast_flat m.
Proof.
  intros [(Hw & Hp & Hl & Hb) Hn] Hs.
  apply min_scan; [exact Hn|pose proof (lvr_depth lay _ _ Hl); lia|exact Hs].
Qed.

(* every history of Inserts and Deletes from a tree that meets the invariant *)
Theorem scans_of_reachable_trees (ops : list (mop (V := V))) : forall m, MInv2 m ->
  Forall (fun o => P (mop_key o)) ops ->
  exists m', run_mops m ops = Some m' /\ MInv2 m' /\
    mast_flat m' = fold_left list_step ops (mast_flat m) /\
    forall steps, length (mast_flat m') < steps ->
      c_walk_fwd steps (S (m_height m')) (c_min (S (m_height m')) (mast_cursor m')) = mast_flat m'.
Proof.
  intros m Hm Hops.
  destruct (run_mops_keeps bf P P_layers P_safe MInv2 (fun _ H => proj1 H) mast_insert_keeps_inv2
              mast_delete_keeps_inv2 ops m Hm Hops) as (m' & Hr & Hm' & Hf).
  exists m'. split; [exact Hr|]. split; [exact Hm'|]. split; [exact Hf|].
  intros steps. apply scan_of_invariant_tree. exact Hm'.
Qed.

End Scan.
