(* SpecProofs.v — the documented conflict rule (SpecMerge.interp_key) coincides with "the
   newest statement wins, as a whole row" (what the implementation computes, see C01/C06)
   whenever the newest statement assigns every column and, if it is an UPDATE, the latest INSERT
   or DELETE before it is an INSERT (interp_key_newest): so on histories in which every UPDATE
   assigns every column and no UPDATE follows a DELETE of the same row without an INSERT in between. *)
From S3db Require Import Base KeyOrder.
From S3db.spec Require Import SpecMerge.
Import ListNotations.
Open Scope Z_scope.

Lemma pick_snoc P evs x : pick P (evs ++ [x]) = pick_step P (pick P evs) x.
Proof. apply fold_left_app. Qed.

Lemma pick_spec P evs :
  match pick P evs with
  | Some m => P m = true /\ In m evs /\ forall e, In e evs -> P e = true -> e_t e <= e_t m
  | None => forall e, In e evs -> P e = false
  end.
Proof.
  induction evs as [|x evs IH] using rev_ind; [intros e []|].
  rewrite pick_snoc. unfold pick_step.
  assert (Hx : (forall e, In e evs -> P e = true -> e_t e <= e_t x) ->
          In x (evs ++ [x]) /\ forall e, In e (evs ++ [x]) -> P e = true -> e_t e <= e_t x).
  { intros Hmax. split; [apply in_or_app; right; left; reflexivity|].
    intros e He Pe. apply in_app_or in He as [He|[<-|[]]]; [auto|lia]. }
  destruct (pick P evs) as [b|], (P x) eqn:Px.
  - destruct IH as (Pb & Ib & Mb). destruct (Z.leb_spec (e_t b) (e_t x)).
    + split; [exact Px|]. apply Hx. intros e He Pe. specialize (Mb e He Pe). lia.
    + split; [exact Pb|]. split; [apply in_or_app; left; exact Ib|].
      intros e He Pe. apply in_app_or in He as [He|[<-|[]]]; [auto|lia].
  - destruct IH as (Pb & Ib & Mb). split; [exact Pb|]. split; [apply in_or_app; left; exact Ib|].
    intros e He Pe. apply in_app_or in He as [He|[<-|[]]]; [auto|congruence].
  - split; [exact Px|]. apply Hx. intros e He Pe. rewrite (IH e He) in Pe. discriminate.
  - intros e He. apply in_app_or in He as [He|[<-|[]]]; [auto|exact Px].
Qed.

(* with pairwise distinct times the maximum is unique *)
Definition distinct_times (evs : list ev) : Prop :=
  forall a b, In a evs -> In b evs -> e_t a = e_t b -> a = b.

Lemma pick_unique P evs m :
  distinct_times evs -> In m evs -> P m = true ->
  (forall e, In e evs -> P e = true -> e_t e <= e_t m) -> pick P evs = Some m.
Proof.
  intros Hd Hin Pm Hmax. pose proof (pick_spec P evs) as H.
  destruct (pick P evs) as [m'|].
  - destruct H as (Pm' & Hin' & Hmax'). f_equal. apply Hd; auto.
    pose proof (Hmax m' Hin' Pm'). pose proof (Hmax' m Hin Pm). lia.
  - rewrite (H m Hin) in Pm. discriminate.
Qed.

Definition full_assign (n : nat) (e : ev) : Prop :=
  is_del e = false -> exists vals, length vals = n /\ e_assign e = map Some vals.

(* the values a full statement assigns *)
Definition vals_of_event (e : ev) : list sval :=
  map (fun a => match a with Some v => v | None => VNull end) (e_assign e).

(* "newest statement wins, whole row" *)
Definition newest_wins (n : nat) (m : ev) : option (list sval) :=
  if is_del m then None else Some (vals_of_event m).

(* no UPDATE without a live row under it: the latest INSERT/DELETE older than the UPDATE is an INSERT *)
Definition upd_on_live (evs : list ev) : Prop :=
  forall u, In u evs -> e_kind u = EUpd ->
    exists s, In s evs /\ e_kind s = EIns /\ e_t s < e_t u /\
              forall d, In d evs -> is_status d = true -> e_t d < e_t u -> e_t d <= e_t s.

Lemma map_seq_nth {A} (l : list A) d : map (fun i => nth i l d) (seq 0 (length l)) = l.
Proof.
  induction l as [|x l IH]; cbn [length seq map nth]; [reflexivity|].
  f_equal. rewrite <- seq_shift, map_map. exact IH.
Qed.

(* under a newest statement m that assigns every column, every column read from t0 <= e_t m
   on is the one m assigned *)
Lemma cols_of_max n evs m t0 :
  distinct_times evs -> In m evs -> is_del m = false -> full_assign n m ->
  t0 <= e_t m -> (forall e, In e evs -> e_t e <= e_t m) ->
  map (fun i => col_value i t0 evs) (seq 0 n) = vals_of_event m.
Proof.
  intros Hd Hin Hnd Hf Ht0 Hmax. destruct (Hf Hnd) as (vals & <- & Ea).
  unfold vals_of_event. rewrite Ea, map_map, map_id.
  rewrite <- (map_seq_nth vals VNull) at 2. apply map_ext_in. intros i Hi%in_seq.
  assert (Ei : nth_error (e_assign m) i = Some (Some (nth i vals VNull))).
  { rewrite Ea. apply map_nth_error, nth_error_nth'. lia. }
  unfold col_value. rewrite (pick_unique _ evs m Hd Hin).
  - rewrite Ei. reflexivity.
  - rewrite Hnd. unfold assigns. rewrite Ei. destruct (Z.leb_spec t0 (e_t m)); [reflexivity|lia].
  - intros e He _. apply Hmax, He.
Qed.

(* only the newest statement matters: it assigns every column and, if it is an UPDATE, has a live row under it *)
Theorem interp_key_newest n evs m :
  distinct_times evs -> In m evs -> (forall e, In e evs -> e_t e <= e_t m) -> full_assign n m ->
  (e_kind m = EUpd ->
   exists s, In s evs /\ e_kind s = EIns /\ e_t s < e_t m /\
             forall d, In d evs -> is_status d = true -> e_t d < e_t m -> e_t d <= e_t s) ->
  interp_key n evs = newest_wins n m.
Proof.
  intros Hd Hin Hmax Hfull Hlive.
  assert (Hm : e_kind m <> EUpd -> pick is_status evs = Some m).
  { intros K. apply pick_unique; auto. unfold is_status. destruct (e_kind m); congruence. }
  unfold interp_key, newest_wins, latest_status, is_del.
  destruct (e_kind m) eqn:Km.
  - (* newest is an INSERT *)
    rewrite Hm, Km by congruence. f_equal.
    apply (cols_of_max n); auto. unfold is_del. rewrite Km. reflexivity.
  - (* newest is an UPDATE: the row under it was inserted, nothing newer deletes it *)
    destruct (Hlive eq_refl) as (s & Hs & Ks & Hlt & Hsmax).
    rewrite (pick_unique _ evs s Hd Hs), Ks.
    + f_equal. apply (cols_of_max n); auto using Z.lt_le_incl. unfold is_del. rewrite Km. reflexivity.
    + unfold is_status. rewrite Ks. reflexivity.
    + intros e He Pe. destruct (Z.eq_dec (e_t e) (e_t m)) as [E|E].
      * rewrite (Hd e m He Hin E) in Pe. unfold is_status in Pe. rewrite Km in Pe. discriminate.
      * apply Hsmax; auto. specialize (Hmax e He). lia.
  - (* newest is a DELETE *)
    rewrite Hm, Km by congruence. reflexivity.
Qed.

Theorem interp_key_newest_wins n evs m :
  distinct_times evs -> (forall e, In e evs -> full_assign n e) -> upd_on_live evs ->
  In m evs -> (forall e, In e evs -> e_t e <= e_t m) ->
  interp_key n evs = newest_wins n m.
Proof. intros Hd Hfull Hlive Hin Hmax. apply interp_key_newest; auto. Qed.

(* the documented rule is NOT "newest statement wins" outside that region: witnesses *)
Definition ev_ins := {| e_kind := EIns; e_key := VInt 1; e_t := 10; e_assign := [Some (VInt 1); Some (VInt 1)] |}.
Definition ev_upd_a := {| e_kind := EUpd; e_key := VInt 1; e_t := 30; e_assign := [Some (VInt 2); None] |}.
Definition ev_upd_b := {| e_kind := EUpd; e_key := VInt 1; e_t := 20; e_assign := [None; Some (VInt 3)] |}.
Definition ev_del := {| e_kind := EDel; e_key := VInt 1; e_t := 20; e_assign := [] |}.
Definition ev_upd_full := {| e_kind := EUpd; e_key := VInt 1; e_t := 30; e_assign := [Some (VInt 2); Some (VInt 2)] |}.

(* per-column rule: (2,3); whole-row: (2,1) as the implementation gives (finding F-C02-1) *)
Theorem partial_updates_differ :
  interp_key 2 [ev_ins; ev_upd_a; ev_upd_b] = Some [VInt 2; VInt 3].
Proof. vm_compute. reflexivity. Qed.

(* sticky delete: absent; whole-row newest-wins resurrects the row (finding F-C02-2) *)
Theorem update_after_delete_differs :
  interp_key 2 [ev_ins; ev_del; ev_upd_full] = None /\ newest_wins 2 ev_upd_full = Some [VInt 2; VInt 2].
Proof. vm_compute. auto. Qed.
