(* Selector.v — abstract lemma: an operation that always returns one of its arguments and
   returns one of minimal rank computes, when folded, the minimum of the set; therefore the
   result does not depend on order, grouping or repetition.  Used for the kv value join
   (LastWriteWins) and for the s3db row join (mergeValues on SQL-reachable rows). *)
From Coq Require Import ZArith Lia List.
Import ListNotations.
Open Scope Z_scope.

Definition rle (x y : Z * Z) : Prop := fst x < fst y \/ (fst x = fst y /\ snd x <= snd y).

Lemma rle_refl x : rle x x.
Proof. unfold rle. lia. Qed.
Lemma rle_trans x y z : rle x y -> rle y z -> rle x z.
Proof. unfold rle. lia. Qed.
Lemma rle_antisym x y : rle x y -> rle y x -> x = y.
Proof. destruct x, y. unfold rle. cbn. intros. f_equal; lia. Qed.
Lemma rle_total x y : rle x y \/ rle y x.
Proof. unfold rle. lia. Qed.

Section Selector.
Variables (A : Type) (P : A -> Prop) (rk : A -> Z * Z) (f : A -> A -> A).
Hypothesis f_sel : forall a b, P a -> P b -> f a b = a \/ f a b = b.
Hypothesis f_min : forall a b, P a -> P b -> rle (rk (f a b)) (rk a) /\ rle (rk (f a b)) (rk b).

(* two values of equal rank are the same value ("distinct write times, or identical retries") *)
Definition compat (a b : A) : Prop := rk a = rk b -> a = b.
Definition pairwise_compat (l : list A) : Prop := forall a b, In a l -> In b l -> compat a b.

Definition is_min (l : list A) (r : A) : Prop := In r l /\ forall x, In x l -> rle (rk r) (rk x).

Lemma f_P a b : P a -> P b -> P (f a b).
Proof. intros Ha Hb. destruct (f_sel a b Ha Hb) as [E|E]; rewrite E; assumption. Qed.

Lemma is_min_one a : is_min [a] a.
Proof. split; [left; reflexivity|]. intros x [<-|[]]. apply rle_refl. Qed.

Lemma is_min_P l r : Forall P l -> is_min l r -> P r.
Proof. intros H [I _]. rewrite Forall_forall in H. exact (H r I). Qed.

(* the join of two minima is the minimum of the union *)
Lemma f_is_min l1 l2 r1 r2 :
  Forall P l1 -> Forall P l2 -> is_min l1 r1 -> is_min l2 r2 -> is_min (l1 ++ l2) (f r1 r2).
Proof.
  intros H1 H2 N1 N2. pose proof (is_min_P l1 r1 H1 N1) as P1. pose proof (is_min_P l2 r2 H2 N2) as P2.
  destruct N1 as [I1 M1], N2 as [I2 M2], (f_min r1 r2 P1 P2) as [L1 L2]. split.
  - apply in_or_app. destruct (f_sel r1 r2 P1 P2) as [-> | ->]; auto.
  - intros x Hx. apply in_app_or in Hx as [Hx|Hx].
    + eapply rle_trans; [exact L1|auto].
    + eapply rle_trans; [exact L2|auto].
Qed.

Theorem fold_is_min l : forall a, P a -> Forall P l -> is_min (a :: l) (fold_left f l a).
Proof.
  induction l as [|x l IH] using rev_ind; intros a Ha Hl; [apply is_min_one|].
  apply Forall_app in Hl as [Hl Hx]. rewrite fold_left_app. apply (f_is_min (a :: l) [x]); auto using is_min_one.
Qed.

Lemma min_unique l r1 r2 : pairwise_compat l -> is_min l r1 -> is_min l r2 -> r1 = r2.
Proof.
  intros Hc [Hi1 Hm1] [Hi2 Hm2]. apply Hc; try assumption.
  apply rle_antisym; [apply Hm1 | apply Hm2]; assumption.
Qed.

Lemma is_min_same_set l l' r : (forall x, In x l <-> In x l') -> is_min l r -> is_min l' r.
Proof.
  intros H [Hi Hm]. split; [apply H; exact Hi|]. intros x Hx. apply Hm. apply H. exact Hx.
Qed.

(* ORDER, REPETITION: any two folds over lists with the same set of elements agree *)
Theorem fold_same_set a l a' l' :
  P a -> Forall P l -> P a' -> Forall P l' ->
  (forall x, In x (a :: l) <-> In x (a' :: l')) ->
  pairwise_compat (a :: l) ->
  fold_left f l a = fold_left f l' a'.
Proof.
  intros Ha Hl Ha' Hl' Hset Hc.
  eapply min_unique; [exact Hc | apply fold_is_min; assumption |].
  eapply is_min_same_set; [intros x; symmetry; apply Hset | apply fold_is_min; assumption].
Qed.

(* GROUPING: joining two intermediate results equals folding everything at once *)
Theorem fold_grouping a1 l1 a2 l2 :
  P a1 -> Forall P l1 -> P a2 -> Forall P l2 ->
  pairwise_compat (a1 :: l1 ++ a2 :: l2) ->
  f (fold_left f l1 a1) (fold_left f l2 a2) = fold_left f (l1 ++ a2 :: l2) a1.
Proof.
  intros Ha1 Hl1 Ha2 Hl2 Hc. eapply min_unique; [exact Hc| |].
  - apply (f_is_min (a1 :: l1) (a2 :: l2)); auto using fold_is_min.
  - apply fold_is_min; [assumption|]. apply Forall_app. auto.
Qed.

(* ABSORPTION: joining with something that is not better changes nothing *)
Theorem f_absorb m x : P m -> P x -> compat m x -> rle (rk m) (rk x) ->
  f m x = m /\ f x m = m.
Proof.
  intros Pm Px C Hle.
  assert (K : forall r, r = m \/ r = x -> rle (rk r) (rk m) -> r = m).
  { intros r [E|E] L; [exact E|]. subst r. symmetry. apply C, rle_antisym; assumption. }
  split; apply K.
  - apply f_sel; assumption.
  - apply f_min; assumption.
  - apply or_comm, f_sel; assumption.
  - apply f_min; assumption.
Qed.

Theorem f_idem a : P a -> f a a = a.
Proof. intros Pa. destruct (f_sel a a Pa Pa); assumption. Qed.

Theorem f_comm a b : P a -> P b -> compat a b -> compat b a -> f a b = f b a.
Proof.
  intros Pa Pb C1 C2.
  destruct (rle_total (rk a) (rk b)) as [H|H].
  - destruct (f_absorb a b Pa Pb C1 H) as [E1 E2]. congruence.
  - destruct (f_absorb b a Pb Pa C2 H) as [E1 E2]. congruence.
Qed.

End Selector.
