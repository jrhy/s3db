(* SchedProofs.v — concurrent clients, any interleaving at the granularity of storage requests
   (C03).  [rs M p]: program p deletes from current/ only names it has itself copied under
   merged/ before (M = the names copied so far), and deletes nothing else.  Open, commit and
   the whole client operations of Client.v are such programs.  For EVERY schedule of any number
   of such clients, from any bucket:
   - every version name that is under current/ or merged/ stays under current/ or merged/,
     names under merged/ stay under merged/, node names stay (nothing disappears);
   - hence a version listed under current/ by an opener and retired before the opener fetches
     it is under merged/ at any later time, where the fallback of fix 139e009 looks (drawn in
     C03.v). *)
From S3db Require Import Base Store KvProto Sched Client.
From S3db.proofs Require Import ProtoProofs CommitProofs.
Import ListNotations.
Open Scope Z_scope.

Section SchedProofs.
Context {V : Type}.
Variable oeq : obj V -> obj V -> bool.

(* nothing has disappeared on the way from [b] to [b'] *)
Definition mono (b b' : bucket V) : Prop :=
  (forall x, ver_present b x -> ver_present b' x) /\
  (forall x, has (b_merged b) x -> has (b_merged b') x) /\
  (forall x, has (b_node b) x -> has (b_node b') x).

Lemma mono_refl b : mono b b.
Proof. repeat split; auto. Qed.
Lemma mono_trans a b c : mono a b -> mono b c -> mono a c.
Proof. intros (A1 & A2 & A3) (B1 & B2 & B3). repeat split; auto. Qed.

(* the only deletion allowed: of a name under current/ whose copy is under merged/ *)
Definition req_safe (b : bucket V) (rq : req V) : Prop :=
  match rq with
  | RDel PCur k => has (b_merged b) k
  | RDel _ _ => False
  | _ => True
  end.

Lemma req_safe_mono b rq : req_safe b rq -> mono b (fst (exec_req oeq rq b)).
Proof.
  destruct rq as [pf|pf nn|pf nn o|pf nn|o]; cbn [exec_req fst req_safe]; intros Hs; try apply mono_refl.
  -
    destruct pf; cbn [upd sel]; unfold mono, ver_present; cbn [b_cur b_merged b_node];
      repeat split; intros x Hx; try exact Hx; try (apply has_put; exact Hx).
    + destruct Hx as [Hx|Hx]; [left; apply has_put; exact Hx|right; exact Hx].
    + destruct Hx as [Hx|Hx]; [left; exact Hx|right; apply has_put; exact Hx].
  - (* DELETE: only current/k with k under merged/ *)
    destruct pf; try contradiction. cbn [upd sel]. unfold mono, ver_present. cbn [b_cur b_merged b_node].
    repeat split; intros x Hx; try exact Hx.
    destruct (Z.eq_dec x nn) as [->|Hn]; [right; exact Hs|].
    destruct Hx as [Hx|Hx]; [left; apply has_del_other; assumption|right; exact Hx].
  -
    unfold intern. destruct (tbl_find oeq o (b_tbl b)); cbn; [apply mono_refl|]. repeat split; auto.
Qed.

Inductive rs {A} : list name -> Store.prog V A -> Prop :=
| rs_ret M a : rs M (Ret a)
| rs_fail M e : rs M (Fail e)
| rs_putm M k o kont :
    (forall r, rs (match r with ROk => k :: M | _ => M end) (kont r)) -> rs M (Do (RPut PMerged k o) kont)
| rs_delc M k kont : In k M -> (forall r, rs M (kont r)) -> rs M (Do (RDel PCur k) kont)
| rs_other M rq kont :
    (match rq with RPut PMerged _ _ | RDel _ _ => False | _ => True end) ->
    (forall r, rs M (kont r)) -> rs M (Do rq kont).

Lemma rs_weaken {A} M (p : Store.prog V A) : rs M p -> forall M', incl M M' -> rs M' p.
Proof.
  induction 1 as [M a|M e|M k o kont Hk IH|M k kont Hin Hk IH|M rq kont Hrq Hk IH]; intros M' Hi.
  - constructor.
  - constructor.
  - constructor. intros r. apply IH. destruct r; try exact Hi. intros x [<-|Hx]; [left; reflexivity|right; apply Hi; exact Hx].
  - constructor; [apply Hi; exact Hin|]. intros r. apply IH. exact Hi.
  - apply rs_other; [exact Hrq|]. intros r. apply IH. exact Hi.
Qed.

Lemma rs_bind {A B} M (p : Store.prog V A) (f : A -> Store.prog V B) :
  rs M p -> (forall a, rs M (f a)) -> rs M (bind p f).
Proof.
  intros Hp. revert f. induction Hp as [M a|M e|M k o kont Hk IH|M k kont Hin Hk IH|M rq kont Hrq Hk IH]; intros f Hf; cbn [bind].
  - apply Hf.
  - constructor.
  - constructor. intros r. apply IH. intros a. eapply rs_weaken; [apply Hf|].
    destruct r; try apply incl_refl. intros x Hx. right. exact Hx.
  - constructor; [exact Hin|]. intros r. apply IH. exact Hf.
  - apply rs_other; [exact Hrq|]. intros r. apply IH. exact Hf.
Qed.

Lemma no_mut_rs {A} (p : Store.prog V A) : no_mut p -> forall M, rs M p.
Proof.
  induction 1 as [a|e|r k Hr Hk IH]; intros M.
  - constructor.
  - constructor.
  - apply rs_other; [destruct r; cbn in Hr; try discriminate; exact I|]. intros x. apply IH.
Qed.

Lemma move_merged_rs n l : forall M, rs M (move_merged (V := V) n l).
Proof.
  induction l as [|[key v] l IH]; intros M; cbn [move_merged]; [constructor|].
  apply if_both; [apply IH|].
  apply rs_putm. intros r. destruct r; try apply rs_ret.
  apply rs_delc; [left; reflexivity|]. intros r2. destruct r2; try apply rs_ret. apply IH.
Qed.

Ltac rs_done := first [apply rs_ret | apply rs_fail].

Lemma commit_rs order (h : handle (V := V)) M : rs M (commit order h).
Proof.
  rewrite commit_eq. apply if_both; [rs_done|]. apply if_both; [rs_done|].
  apply rs_bind.
  - unfold flush_tree. destruct (stores_tree h); [|rs_done].
    apply rs_other; [exact I|]. intros r. destruct r; try rs_done.
    apply rs_other; [exact I|]. intros r2. destruct r2; rs_done.
  - intros [link stored]. apply if_both; [rs_done|]. unfold publish.
    apply rs_other; [exact I|]. intros r. destruct r; try rs_done.
    apply rs_other; [exact I|]. intros r2. destruct r2; try rs_done.
    apply rs_bind; [apply move_merged_rs|]. intros _. rs_done.
Qed.

Variable c : cfg (V := V).

Lemma open_rs ro only when order corder M : rs M (open c ro only when order corder).
Proof.
  unfold open. apply if_both; [rs_done|].
  apply rs_bind.
  - destruct only; [rs_done|]. apply rs_other; [exact I|]. intros r. destruct r; rs_done.
  - intros [[names ps] skip]. apply rs_bind; [apply no_mut_rs; apply merge_loop_nm|].
    intros [acc merged]. destruct ro; [rs_done|].
    apply rs_bind; [apply commit_rs|]. intros [h' r]. destruct r; rs_done.
Qed.

Lemma node_loads_rs {A} n l (k : Store.prog V A) M : rs M k -> rs M (node_loads n l k).
Proof.
  intros Hk. induction n as [|n IH]; cbn [node_loads]; [exact Hk|].
  apply rs_other; [exact I|]. intros r. destruct r as [| |o| | |]; try rs_done. destruct o; [exact IH|rs_done].
Qed.

Lemma loads_rs {A} n (h : handle (V := V)) (k : Store.prog V A) M : rs M k -> rs M (loads n h k).
Proof. intros Hk. unfold loads. destruct (link_only h); [apply node_loads_rs; exact Hk|exact Hk]. Qed.

Theorem client_reader_rs ow order M : rs M (client_reader c ow order).
Proof. unfold client_reader. apply rs_bind; [apply open_rs|]. intros h. apply loads_rs. rs_done. Qed.

Theorem client_merger_rs ow order corder M : rs M (client_merger c ow order corder).
Proof. unfold client_merger. apply rs_bind; [apply open_rs|]. intros h. apply loads_rs. rs_done. Qed.

Theorem client_writer_rs ow order corder w k v M : rs M (client_writer c ow order corder w k v).
Proof.
  unfold client_writer. apply rs_bind; [apply open_rs|]. intros h. apply loads_rs.
  destruct (kv_set c h w k v) as [h'|]; [|rs_done].
  apply rs_bind; [apply commit_rs|]. intros [h'' r]. destruct r; [apply loads_rs|]; rs_done.
Qed.

(* the copies the program counts on are there *)
Definition knows (b : bucket V) (M : list name) : Prop := forall k, In k M -> has (b_merged b) k.

(* a client whose pending deletions are all covered by copies under merged/ *)
Definition safe {R} (b : bucket V) (p : Store.prog V R) : Prop := exists M, rs M p /\ knows b M.

Lemma safe_mono {R} b b' (p : Store.prog V R) : mono b b' -> safe b p -> safe b' p.
Proof. intros Hm (M & Hrs & Hk). exists M. split; [exact Hrs|]. intros x Hx. apply Hm, Hk, Hx. Qed.

(* executing its next request loses nothing (nor, [mono] being transitive, anything [b0] held) and
   leaves it such a client *)
Lemma safe_step {R} b0 b rq (k : resp V -> Store.prog V R) : mono b0 b /\ safe b (Do rq k) ->
  mono b0 (fst (exec_req oeq rq b)) /\ safe (fst (exec_req oeq rq b)) (k (snd (exec_req oeq rq b))).
Proof.
  intros (Hm0 & M & Hrs & Hk).
  assert (Hm : mono b (fst (exec_req oeq rq b))).
  { apply req_safe_mono. inversion Hrs; subst; cbn; try exact I.
    - apply Hk. assumption.
    - destruct rq; cbn in *; try exact I; contradiction. }
  split; [exact (mono_trans _ _ _ Hm0 Hm)|].
  inversion Hrs as [| |? k0 o ? Hk0| |]; subst; try (eapply safe_mono; [exact Hm|]; exists M; auto; fail).
  (* PUT merged/k0: the copy is there from now on *)
  exists (k0 :: M). split; [exact (Hk0 ROk)|].
  intros x [<-|Hx]; [cbn; unfold has; rewrite get_put_same; discriminate|apply Hm, Hk, Hx].
Qed.

(* A scheduled step only ever executes the client's next request: what one executed request
   preserves holds after the step. *)
Section Steps.
Context {R : Type} (Inv : bucket V -> Store.prog V R -> Prop).
Hypothesis Inv_step : forall b rq k, Inv b (Do rq k) -> Inv (fst (exec_req oeq rq b)) (k (snd (exec_req oeq rq b))).

Lemma run_free_inv fuel free : forall b p, Inv b p -> let '(b', p') := run_free oeq fuel free b p in Inv b' p'.
Proof.
  induction fuel as [|f IH]; intros b p H; cbn [run_free]; [exact H|].
  destruct p as [a|e|rq k]; try exact H. destruct (free rq); [|exact H].
  apply Inv_step in H. destruct (exec_req oeq rq b) as [b1 rs1]. exact (IH _ _ H).
Qed.

Lemma cstep_inv fuel b p : Inv b p -> let '(b', p', _) := cstep oeq fuel b p in Inv b' p'.
Proof.
  intros H. unfold cstep. apply (run_free_inv fuel is_hash_req) in H.
  destruct (run_free oeq fuel is_hash_req b p) as [b1 [a|e|rq k]]; try exact H.
  apply Inv_step in H. destruct (exec_req oeq rq b1) as [b2 rs2]. cbn [fst snd] in H. apply (run_free_inv fuel is_node_get) in H.
  destruct (run_free oeq fuel is_node_get b2 (k rs2)) as [b3 p3]. exact H.
Qed.
End Steps.

Definition sys_ok {R} (b : bucket V) (clients : list (Store.prog V R)) : Prop :=
  Forall (fun p => exists M, rs M p /\ knows b M) clients.

Lemma sys_ok_mono {R} b b' (clients : list (Store.prog V R)) : mono b b' -> sys_ok b clients -> sys_ok b' clients.
Proof.
  intros Hm. apply Forall_impl. intros p. apply safe_mono, Hm.
Qed.

Lemma sys_ok_set {R} b i (p : Store.prog V R) clients :
  sys_ok b clients -> safe b p -> sys_ok b (set_nth i p clients).
Proof.
  intros H Hp. revert i. induction H as [|q l Hq Hl IH]; intros i; destruct i; cbn [set_nth];
    try constructor; auto. apply IH.
Qed.

Theorem sched_nothing_disappears {R} sched : forall (clients : list (Store.prog V R)) b step log,
  sys_ok b clients ->
  let '(b', clients', _) := sched_run oeq clients sched b step log in
  mono b b' /\ sys_ok b' clients'.
Proof.
  induction sched as [|i rest IH]; intros clients b step log Hok; cbn [sched_run].
  - split; [apply mono_refl|exact Hok].
  - destruct (nth_error clients i) as [p|] eqn:Ei; [|apply IH; exact Hok].
    apply if_both; [apply IH; exact Hok|].
    assert (Hp : safe b p).
    { unfold sys_ok in Hok. rewrite Forall_forall in Hok. apply Hok. eapply nth_error_In; eassumption. }
    (* 64: the fuel that [sched_run] gives [cstep] (Sched.v) *)
    pose proof (cstep_inv (fun b1 p1 => mono b b1 /\ safe b1 p1) (safe_step b) 64 b p (conj (mono_refl b) Hp)) as Hc.
    destruct (cstep oeq 64 b p) as [[b1 p1] r]. destruct Hc as (Hm & Hnext).
    assert (Hok1 : sys_ok b1 (set_nth i p1 clients)).
    { apply sys_ok_set; [eapply sys_ok_mono; eassumption|exact Hnext]. }
    specialize (IH (set_nth i p1 clients) b1 (step + 1)
                   (match r with Some rq => (step, i, rq) :: log | None => log end) Hok1).
    destruct (sched_run oeq (set_nth i p1 clients) rest b1 (step + 1) _) as [[b2 cl2] lg2].
    destruct IH as (Hm2 & Hok2). split; [eapply mono_trans; eassumption|exact Hok2].
Qed.

End SchedProofs.
