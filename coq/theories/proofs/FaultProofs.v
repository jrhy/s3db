(* FaultProofs.v — the vocabulary of "storage faults surface as errors, never as wrong answers" (C14,
   and the "fails instead of returning a partial answer" clause of C12).
   The plans are those that answer requests with transport errors / expired deadlines at any
   positions, any number of them; a well-formed "no such object" answer is the documented signal
   for a vacuumed version and is excluded, as the property says.
   [spec b p P]: every execution of p from bucket b under the plan leaves b unchanged and either
   fails or returns a value satisfying P.  It is what the weakest precondition of ExecProofs gives
   for the postcondition [reads] ([spec_of_wp]); the theorems themselves are stated in C14.v and
   C12.v, as the instances "errors may be injected, failing is allowed" of the theorems of
   OpenProofs. *)
From S3db Require Import Base Store.
From S3db.proofs Require Import ExecProofs.
Import ListNotations.
Open Scope Z_scope.

Section Faults.
Context {V : Type}.
Variable oeq : obj V -> obj V -> bool.
Variable plan : list fault.
(* only transport errors are injected *)
Hypothesis err_only : forall tr (rq : req V), plan_outcome plan tr rq <> OGone.

Notation execp := (@exec V oeq plan None _).

Definition good {A} (P : A -> Prop) (r : result A) : Prop :=
  (exists a, r = Done a /\ P a) \/ exists e, r = Failed e.

Definition spec {A} (b : bucket V) (p : Store.prog V A) (P : A -> Prop) : Prop :=
  forall m tr b1 r tr1 m1, execp m b p tr b1 r tr1 m1 -> b1 = b /\ good P r.

Notation wp := (@wp V oeq (fun o => o <> OGone) _).

Lemma spec_of_wp {A} b (p : Store.prog V A) (P : A -> Prop) : wp p (reads True b P) b -> spec b p P.
Proof.
  intros W m tr b1 r tr1 m1 X.
  destruct (wp_sound oeq plan None _ err_only X W) as (_ & _ & -> & [H|(_ & H)]);
    (split; [reflexivity|]); [left|right]; exact H.
Qed.

End Faults.
