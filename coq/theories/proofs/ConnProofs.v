(* ConnProofs.v — the connection attribute block (deadline, write_time, automatic
   transaction time). *)
From S3db Require Import Base Stmt.
Open Scope Z_scope.

Theorem attrs_readback c d w :
  c_deadline (conn_update c (Some d) (Some w)) = d /\ c_wt (conn_update c (Some d) (Some w)) = w.
Proof. split; reflexivity. Qed.

Theorem attrs_clear_restores c :
  c_txfixed c = false ->
  conn_update (conn_update c (Some None) None) None (Some None) = conn0.
Proof. intros _. reflexivity. Qed.

(* deadline updates touch neither the write time nor its automatic flag *)
Lemma deadline_updates_keep dls : forall c,
  let c' := fold_left (fun cc d => conn_update cc (Some d) None) dls c in
  c_wt c' = c_wt c /\ c_txfixed c' = c_txfixed c.
Proof.
  induction dls as [|d dls IH]; intros c; cbn [fold_left]; [split; reflexivity|].
  exact (IH (conn_update c (Some d) None)).
Qed.

(* the automatic transaction time: set at BEGIN only when no write time is set, gone at the
   end of the transaction, whatever deadline updates happen in between *)
Theorem auto_time_scoped c now dls :
  c_wt c = None -> c_txfixed c = false ->
  let c1 := conn_begin c now in
  let c2 := fold_left (fun cc d => conn_update cc (Some d) None) dls c1 in
  c_wt c2 = Some now /\ c_wt (conn_end c2) = None /\ c_txfixed (conn_end c2) = false.
Proof.
  intros W F. unfold conn_begin. rewrite W.
  destruct (deadline_updates_keep dls {| c_deadline := c_deadline c; c_wt := Some now; c_txfixed := true |}) as [H1 H2].
  split; [exact H1|]. unfold conn_end. rewrite H2. split; reflexivity.
Qed.

(* all statements of one transaction get one write time (unless the connection sets it) *)
Theorem one_write_time c now n1 n2 :
  let c1 := conn_begin c now in stmt_time c1 n1 = stmt_time c1 n2.
Proof. unfold conn_begin, stmt_time. destruct (c_wt c) eqn:E; cbn; rewrite ?E; reflexivity. Qed.

(* setting write_time inside a transaction makes it explicit: it outlives the transaction *)
Theorem explicit_inside_tx_survives c now t :
  let c2 := conn_update (conn_begin c now) None (Some (Some t)) in
  c_wt (conn_end c2) = Some t.
Proof. reflexivity. Qed.
