(* ScanProofs.v — C06: what a SELECT with key constraints returns.  The cursor's Filter turns
   the constraints SQLite shows it into a scan window (tightest lower and upper bound with their
   strictness), positions the cursor with Ceil / Min / Max and stops at the first key beyond the
   window; SQLite re-checks every constraint on every row it gets.  Proved here, for every
   well-formed tree, every list of constraints with safe operands and both directions:
   the rows that survive the re-check are EXACTLY the live rows of the table that satisfy all
   constraints, in ascending (descending) key order — the window never hides a qualifying row,
   never repeats one, never reorders.

   A key meets a bound m through the integer cmpZ k m that the cursor computes: k |-> cmpZ k m is
   monotone (cmpZ_mono) and a constraint is a test on that integer (sat_iff), so a key beyond one
   that stops the scan fails the same constraint by linear arithmetic.  Both directions are one
   scan with a stop test and a skip test (gscan), and one induction serves both. *)
From S3db Require Import Base KeyOrder RowMerge Tree KvProto Stmt.
From S3db.proofs Require Import TreeProofs StmtProofs.
Import ListNotations.
Open Scope Z_scope.

Notation rtree := (tree (cval row)).

Definition live (t : rtree) : list (sval * row) :=
  flat_map (fun kv => match row_live (snd kv) with Some r => [(fst kv, r)] | None => [] end) t.

Definition goodb (cs : list (cop * sval)) (kr : sval * row) : bool := forallb (sat (fst kr)) cs.

Lemma filter_rev {A} (f : A -> bool) l : filter f (rev l) = rev (filter f l).
Proof.
  induction l as [|x l IH]; [reflexivity|]. cbn [rev filter]. rewrite filter_app, IH. cbn [filter].
  destruct (f x); cbn [rev app]; [reflexivity|apply app_nil_r].
Qed.

Lemma live_cons k v (t : rtree) :
  live ((k, v) :: t) = match row_live v with Some r => (k, r) :: live t | None => live t end.
Proof. unfold live. cbn [flat_map fst snd]. destruct (row_live v); reflexivity. Qed.
Lemma live_app (a b : rtree) : live (a ++ b) = live a ++ live b.
Proof. apply flat_map_app. Qed.
Lemma live_rev (t : rtree) : live (rev t) = rev (live t).
Proof.
  induction t as [|[k v] t IH]; [reflexivity|].
  cbn [rev]. rewrite live_app, IH, (live_cons k v t), (live_cons k v []).
  destruct (row_live v); cbn [rev live flat_map app]; [reflexivity|rewrite app_nil_r; reflexivity].
Qed.
Lemma in_live (t : rtree) k r : In (k, r) (live t) <-> exists v, In (k, v) t /\ row_live v = Some r.
Proof.
  unfold live. rewrite in_flat_map. split.
  - intros ([k' v] & Hin & Hkr). cbn [fst snd] in Hkr. destruct (row_live v) as [r'|] eqn:E; [|destruct Hkr].
    destruct Hkr as [Hkr|[]]. injection Hkr as <- <-. exists v. auto.
  - intros (v & Hin & Hl). exists (k, v). split; [exact Hin|]. cbn [fst snd]. rewrite Hl. left. reflexivity.
Qed.

Lemma no_good_live (good : sval * row -> bool) (t : rtree) :
  (forall k v r, In (k, v) t -> good (k, r) = false) -> filter good (live t) = [].
Proof.
  induction t as [|[k v] t IH]; intros H; [reflexivity|]. rewrite live_cons.
  pose proof (IH (fun k' v' r Hin => H k' v' r (or_intror Hin))) as IH'.
  destruct (row_live v) as [r|]; [cbn [filter]; rewrite (H k v r (or_introl eq_refl))|]; exact IH'.
Qed.

Section GScan.
Variables (stop : sval -> bool) (skip : bool -> sval -> bool) (good : sval * row -> bool).

Fixpoint gscan (l : rtree) (fl : bool) : list (sval * row) :=
  match l with
  | [] => []
  | (k, v) :: l' =>
      if stop k then []
      else
        let s := skip fl k in
        let fl' := if s then false else fl in
        match (if s then None else row_live v) with
        | Some r => (k, r) :: gscan l' fl'
        | None => gscan l' fl'
        end
  end.

(* if a key that stops the scan disqualifies itself and everything after it, and a skipped key
   disqualifies itself, the scan loses no qualifying row *)
Lemma gscan_spec l : forall fl,
  (forall a k v b, l = a ++ (k, v) :: b ->
     (stop k = true -> forall k' v' r, In (k', v') ((k, v) :: b) -> good (k', r) = false) /\
     (skip fl k = true -> forall r, good (k, r) = false)) ->
  (forall k, skip false k = false) ->   (* both scans skip only while their flag is on *)
  filter good (gscan l fl) = filter good (live l).
Proof.
  induction l as [|[k v] l IH]; intros fl H Hf; [reflexivity|].
  destruct (H [] k v l eq_refl) as [Hstop Hskip].
  (* the flag only ever goes from fl to false *)
  assert (Htl : forall fl', fl' = fl \/ fl' = false -> filter good (gscan l fl') = filter good (live l)).
  { intros fl' Hfl. apply IH; [|exact Hf]. intros a k1 v1 b ->.
    destruct (H ((k, v) :: a) k1 v1 b eq_refl) as [H1 H2]. split; [exact H1|].
    destruct Hfl as [-> | ->]; [exact H2|]. rewrite Hf. discriminate. }
  cbn [gscan]. destruct (stop k).
  - symmetry. apply no_good_live. intros k' v' r Hin. exact (Hstop eq_refl k' v' r Hin).
  - rewrite live_cons. cbv zeta. destruct (skip fl k); cbv iota.
    + rewrite (Htl false) by auto. destruct (row_live v) as [r|]; [|reflexivity].
      cbn [filter]. rewrite (Hskip eq_refl r). reflexivity.
    + destruct (row_live v); cbn [filter]; rewrite (Htl fl) by auto; reflexivity.
Qed.
End GScan.

Definition past_max (w : window) (k : sval) : bool :=
  match w_max w with Some m => let c := cmpZ k m in (w_lt w && (0 <=? c)) || (0 <? c) | None => false end.
Definition past_min (w : window) (k : sval) : bool :=
  match w_min w with Some m => let c := cmpZ k m in (w_gt w && (c <=? 0)) || (c <? 0) | None => false end.
Definition at_min (w : window) (fl : bool) (k : sval) : bool :=
  match w_min w with Some m => fl && (cmpZ k m =? 0) | None => false end.
Definition at_max (w : window) (fl : bool) (k : sval) : bool :=
  match w_max w with Some m => fl && (cmpZ k m =? 0) | None => false end.

Lemma scan_fwd_gscan w l : forall gt, scan_fwd l w gt = gscan (past_max w) (at_min w) l gt.
Proof. induction l as [|[k v] l IH]; intros gt; [reflexivity|]. cbn [scan_fwd gscan]. rewrite !IH. reflexivity. Qed.
Lemma scan_bwd_gscan w l : forall lt, scan_bwd l w lt = gscan (past_min w) (at_max w) l lt.
Proof. induction l as [|[k v] l IH]; intros lt; [reflexivity|]. cbn [scan_bwd gscan]. rewrite !IH. reflexivity. Qed.

Lemma cmpZ_mono k k' m : D k -> D k' -> D m -> order_t k k' <> Gt -> cmpZ k m <= cmpZ k' m.
Proof.
  intros Dk Dk' Dm Hle. unfold cmpZ. destruct (order_t k' m) eqn:E'.
  - rewrite <- (ot_eq_r k' m k Dk' Dm Dk E'). destruct (order_t k k'); [cbn; lia..|congruence].
  - rewrite (ot_le_lt k k' m) by assumption. lia.
  - destruct (order_t k m); cbn; lia.
Qed.

Lemma sat_iff k o m : D k -> D m ->
  (sat k (o, m) = true <->
   let c := cmpZ k m in
   match o with OpEQ => c = 0 | OpLT => c < 0 | OpLE => c <= 0 | OpGE => 0 <= c | OpGT => 0 < c end).
Proof.
  intros Dk Dm. unfold sat, cmpZ. cbn [fst snd]. rewrite (order_exact_some k m Dk Dm).
  destruct (order_t k m), o; cbn; split; (discriminate || lia || reflexivity).
Qed.

(* SQLite's comparison does not tell equivalent keys apart *)
Lemma sat_eq_key k k' o m : D k -> D k' -> D m -> order_t k k' = Eq -> sat k (o, m) = sat k' (o, m).
Proof.
  intros Dk Dk' Dm He. unfold sat. cbn [fst snd].
  rewrite !order_exact_some, (ot_eq_l k k' m) by assumption. reflexivity.
Qed.

Section Scan.
Variable cs : list (cop * sval).
Hypothesis cs_safe : Forall (fun c => D (snd c)) cs.

Lemma cs_D o m : In (o, m) cs -> D m.
Proof. intros H. rewrite Forall_forall in cs_safe. exact (cs_safe _ H). Qed.

Lemma bad_of k r o m : In (o, m) cs -> sat k (o, m) <> true -> goodb cs (k, r) = false.
Proof.
  intros Hin Hs. unfold goodb. cbn [fst]. destruct (forallb (sat k) cs) eqn:E; [|reflexivity].
  rewrite forallb_forall in E. elim Hs. exact (E _ Hin).
Qed.

(* the window's bounds are constraints of the list, strict only if that constraint is; a flag
   without a bound is never read (Filter clears min / max and leaves gtMin / ltMax as they were) *)
Definition lower_ok (w : window) : Prop :=
  match w_min w with
  | Some m => exists o, In (o, m) cs /\ is_lower o = true /\ (w_gt w = true -> o = OpGT)
  | None => True
  end.
Definition upper_ok (w : window) : Prop :=
  match w_max w with
  | Some m => exists o, In (o, m) cs /\ is_upper o = true /\ (w_lt w = true -> o = OpLT)
  | None => True
  end.
Definition win_ok (w : window) : Prop := lower_ok w /\ upper_ok w.

(* a key that stops the scan fails a constraint, and so does every key beyond it.  ([lia] reads a
   stop or skip test, a boolean combination of comparisons over Z that is [= true], as it stands.) *)
Lemma past_max_bad w k k' r : upper_ok w -> D k -> D k' ->
  past_max w k = true -> order_t k k' <> Gt -> goodb cs (k', r) = false.
Proof.
  unfold upper_ok, past_max. destruct (w_max w) as [m|]; [|discriminate].
  intros (o & Hin & Hu & Hlt) Dk Dk' Hs Hle. pose proof (cs_D o m Hin) as Dm.
  apply (bad_of k' r o m Hin). rewrite (sat_iff k' o m Dk' Dm). cbv zeta.
  pose proof (cmpZ_mono k k' m Dk Dk' Dm Hle).
  destruct (w_lt w); [rewrite (Hlt eq_refl)|destruct o; try discriminate Hu]; lia.
Qed.

Lemma past_min_bad w k k' r : lower_ok w -> D k -> D k' ->
  past_min w k = true -> order_t k' k <> Gt -> goodb cs (k', r) = false.
Proof.
  unfold lower_ok, past_min. destruct (w_min w) as [m|]; [|discriminate].
  intros (o & Hin & Hl & Hgt) Dk Dk' Hs Hle. pose proof (cs_D o m Hin) as Dm.
  apply (bad_of k' r o m Hin). rewrite (sat_iff k' o m Dk' Dm). cbv zeta.
  pose proof (cmpZ_mono k' k m Dk' Dk Dm Hle).
  destruct (w_gt w); [rewrite (Hgt eq_refl)|destruct o; try discriminate Hl]; lia.
Qed.

(* a key the scan skips is one at which the scan in the other direction stops *)
Lemma at_min_past w k : at_min w (w_gt w) k = true -> past_min w k = true.
Proof. unfold at_min, past_min. destruct (w_min w); [destruct (w_gt w); lia|discriminate]. Qed.
Lemma at_max_past w k : at_max w (w_lt w) k = true -> past_max w k = true.
Proof. unfold at_max, past_max. destruct (w_max w); [destruct (w_lt w); lia|discriminate]. Qed.

Lemma scan_fwd_spec w (l : rtree) : win_ok w -> wf l ->
  filter (goodb cs) (scan_fwd l w (w_gt w)) = filter (goodb cs) (live l).
Proof.
  intros [Lo Up] W. rewrite scan_fwd_gscan. apply gscan_spec.
  - intros a k v b ->. destruct (wf_entry a b k v W) as (Dk & _ & Hb). split.
    + intros Hs k' v' r [E|Hin].
      * injection E as <- _. apply (past_max_bad w k k r Up Dk Dk Hs). rewrite ot_refl by exact Dk. discriminate.
      * destruct (Hb k' v' Hin) as [Dk' Hlt]. apply (past_max_bad w k k' r Up Dk Dk' Hs). rewrite Hlt. discriminate.
    + intros Hs r. apply (past_min_bad w k k r Lo Dk Dk (at_min_past w k Hs)). rewrite ot_refl by exact Dk. discriminate.
  - intros k. unfold at_min. destruct (w_min w); reflexivity.
Qed.

Lemma scan_bwd_spec w (t : rtree) : win_ok w -> wf t ->
  filter (goodb cs) (scan_bwd (rev t) w (w_lt w)) = rev (filter (goodb cs) (live t)).
Proof.
  intros [Lo Up] W. rewrite scan_bwd_gscan, <- filter_rev, <- live_rev. apply gscan_spec.
  - intros a k v b E. apply rev_eq_app in E. cbn [rev] in E. rewrite <- app_assoc in E. subst t.
    destruct (wf_entry _ _ k v W) as (Dk & Hb & _). split.
    + intros Hs k' v' r [E|Hin].
      * injection E as <- _. apply (past_min_bad w k k r Lo Dk Dk Hs). rewrite ot_refl by exact Dk. discriminate.
      * apply in_rev in Hin. destruct (Hb k' v' Hin) as [Dk' Hlt].
        apply (past_min_bad w k k' r Lo Dk Dk' Hs). rewrite Hlt. discriminate.
    + intros Hs r. apply (past_max_bad w k k r Up Dk Dk (at_max_past w k Hs)). rewrite ot_refl by exact Dk. discriminate.
  - intros k. unfold at_max. destruct (w_max w); reflexivity.
Qed.

(* the keys Ceil leaves out are below the lower bound (ascending) or above the upper bound
   (descending) *)
Theorem scan_asc_spec (t : rtree) w : wf t -> win_ok w ->
  filter (goodb cs) (tbl_scan t false w) = filter (goodb cs) (live t).
Proof.
  intros W Ok. unfold tbl_scan. cbn [negb].
  destruct (w_min w) as [m|] eqn:Em; [|exact (scan_fwd_spec w t Ok W)].
  assert (Dm : D m).
  { destruct Ok as [Lo _]. unfold lower_ok in Lo. rewrite Em in Lo. destruct Lo as (o & Hin & _). exact (cs_D o m Hin). }
  destruct (ceil_split m t) as (a & b & -> & -> & Ha & _). rewrite Forall_forall in Ha.
  destruct (wf_app_inv a b W) as (_ & Wb & _).
  rewrite (scan_fwd_spec w b Ok Wb), live_app, filter_app, (no_good_live _ a); [reflexivity|]. intros k v r Hv.
  assert (Dk : D k) by (apply (wf_In _ k v W), in_or_app; left; exact Hv).
  apply (past_min_bad w k k r (proj1 Ok) Dk Dk); [|rewrite ot_refl by exact Dk; discriminate].
  unfold past_min, cmpZ. rewrite Em, (ot_gt_lt m k Dm Dk (Ha (k, v) Hv)). apply orb_true_r.
Qed.

Theorem scan_desc_spec (t : rtree) w : wf t -> win_ok w ->
  filter (goodb cs) (tbl_scan t true w) = rev (filter (goodb cs) (live t)).
Proof.
  intros W Ok. unfold tbl_scan. cbn [negb].
  destruct (w_max w) as [m|] eqn:Em; [|exact (scan_bwd_spec w t Ok W)].
  assert (Dm : D m).
  { destruct Ok as [_ Up]. unfold upper_ok in Up. rewrite Em in Up. destruct Up as (o & Hin & _). exact (cs_D o m Hin). }
  destruct (ceil_back_split m t Dm W) as (a & b & -> & -> & Hb).
  destruct (wf_app_inv a b W) as (Wa & _ & _).
  rewrite (scan_bwd_spec w a Ok Wa), live_app, filter_app, (no_good_live _ b), app_nil_r; [reflexivity|]. intros k v r Hv.
  assert (Dk : D k) by (apply (wf_In _ k v W), in_or_app; right; exact Hv).
  apply (past_max_bad w k k r (proj2 Ok) Dk Dk); [|rewrite ot_refl by exact Dk; discriminate].
  unfold past_max, cmpZ. rewrite Em, (ot_lt_gt m k Dm Dk (Hb k v Hv)). apply orb_true_r.
Qed.

Definition set_max (w : window) (o : cop) (v : sval) : window :=
  {| w_min := w_min w; w_max := Some v; w_gt := w_gt w; w_lt := match o with OpLT => true | _ => false end |}.
Definition set_min (w : window) (o : cop) (v : sval) : window :=
  {| w_min := Some v; w_max := w_max w; w_gt := match o with OpGT => true | _ => false end; w_lt := w_lt w |}.
Definition tighten_max (w : window) (o : cop) (v : sval) : option window :=
  if is_upper o then
    match w_max w with
    | None => Some (set_max w o v)
    | Some m => match order v m with None => None | Some Lt => Some (set_max w o v) | Some _ => Some w end
    end
  else Some w.
Definition tighten_min (w : window) (o : cop) (v : sval) : option window :=
  if is_lower o then
    match w_min w with
    | None => Some (set_min w o v)
    | Some m => match order v m with None => None | Some Gt => Some (set_min w o v) | Some _ => Some w end
    end
  else Some w.

Lemma win_step_halves w o v :
  win_step (Some w) (o, v) = match tighten_max w o v with Some w1 => tighten_min w1 o v | None => None end.
Proof. reflexivity. Qed.

Lemma tighten_max_ok w o v : In (o, v) cs -> win_ok w -> exists w1, tighten_max w o v = Some w1 /\ win_ok w1.
Proof.
  intros Hin Ok. unfold tighten_max. destruct (is_upper o) eqn:U; [|eauto].
  assert (New : win_ok (set_max w o v)).
  { split; [exact (proj1 Ok)|]. exists o. split; [exact Hin|]. split; [exact U|]. cbn. destruct o; congruence. }
  pose proof (proj2 Ok) as Up. unfold upper_ok in Up. destruct (w_max w) as [m|]; [|eauto].
  destruct Up as (o' & Hin' & _). rewrite (order_some v m (cs_D o v Hin) (cs_D o' m Hin')).
  destruct (order_t v m); eauto.
Qed.

Lemma tighten_min_ok w o v : In (o, v) cs -> win_ok w -> exists w1, tighten_min w o v = Some w1 /\ win_ok w1.
Proof.
  intros Hin Ok. unfold tighten_min. destruct (is_lower o) eqn:L; [|eauto].
  assert (New : win_ok (set_min w o v)).
  { split; [|exact (proj2 Ok)]. exists o. split; [exact Hin|]. split; [exact L|]. cbn. destruct o; congruence. }
  pose proof (proj1 Ok) as Lo. unfold lower_ok in Lo. destruct (w_min w) as [m|]; [|eauto].
  destruct Lo as (o' & Hin' & _). rewrite (order_some v m (cs_D o v Hin) (cs_D o' m Hin')).
  destruct (order_t v m); eauto.
Qed.

Lemma window_ok : exists w, window_of cs = Some w /\ win_ok w.
Proof.
  unfold window_of.
  assert (G : forall l, incl l cs -> forall w0, win_ok w0 ->
              exists w, fold_left win_step l (Some w0) = Some w /\ win_ok w).
  { induction l as [|[o v] l IH]; intros Hl w0 H0; cbn [fold_left]; [eauto|].
    apply incl_cons_inv in Hl. destruct Hl as [Hin Hl]. rewrite win_step_halves.
    destruct (tighten_max_ok w0 o v Hin H0) as (w1 & -> & H1).
    destruct (tighten_min_ok w1 o v Hin H1) as (w2 & -> & H2). exact (IH Hl w2 H2). }
  apply (G cs (incl_refl cs)). split; exact I.
Qed.
End Scan.

Theorem select_is_filter_and_sort (tb : table) (desc : bool) (cs : list (cop * sval)) :
  wf (h_tree (tb_h tb)) -> Forall (fun c => D (snd c)) cs ->
  select_model tb desc cs =
    Some (map (fun kr => (bridge_result (fst kr), row_values (tb_ncols tb) (snd kr)))
              (let qualifying := filter (goodb cs) (live (h_tree (tb_h tb))) in
               if desc then rev qualifying else qualifying)).
Proof.
  intros Hwf F. destruct (window_ok cs F) as (w & Hw & Ok). unfold select_model.
  assert (NN : existsb (fun c : cop * sval => is_null (snd c)) cs = false).
  { clear -F. induction F as [|[o v] l Dv F IH]; [reflexivity|]. cbn [existsb snd]. rewrite IH.
    destruct v; try reflexivity. discriminate Dv. }
  rewrite NN, Hw. do 2 f_equal.
  change (fun kr : sval * row => forallb (sat (fst kr)) cs) with (goodb cs).
  destruct desc; [apply (scan_desc_spec cs F _ w Hwf Ok)|apply (scan_asc_spec cs F _ w Hwf Ok)].
Qed.

(* what "qualifying" means, spelled out: exactly the live rows whose key satisfies every
   constraint under SQLite's own comparison, each once, in the tree's (ascending) key order *)
Theorem qualifying_rows (t : rtree) (cs : list (cop * sval)) k r :
  In (k, r) (filter (goodb cs) (live t)) <->
  (exists v, In (k, v) t /\ row_live v = Some r) /\ forall c, In c cs -> sat k c = true.
Proof. unfold goodb. rewrite filter_In, in_live, forallb_forall. reflexivity. Qed.

Lemma live_vals_some v : live_vals (Some v) = option_map vals_of (row_live v).
Proof. unfold live_vals, row_live. destruct (payload v) as [r|]; [destruct (del r)|]; reflexivity. Qed.

(* every entry of the map that INSERT / UPDATE / DELETE maintain (StmtProofs.abs) whose key satisfies
   the constraints is among the rows a SELECT returns (the converse is drawn in C06.v) *)
Theorem map_entry_is_selected (tb : table) cs k vals :
  wf (h_tree (tb_h tb)) -> D k -> Forall (fun c => D (snd c)) cs ->
  abs tb k = Some vals -> (forall c, In c cs -> sat k c = true) ->
  exists k' r, In (k', r) (filter (goodb cs) (live (h_tree (tb_h tb)))) /\ order_t k k' = Eq /\ vals_of r = vals.
Proof.
  intros Hwf Dk F Ha Hs. unfold abs in Ha.
  destruct (t_get k (h_tree (tb_h tb))) as [v|] eqn:G; [|discriminate].
  rewrite live_vals_some in Ha. destruct (row_live v) as [r|] eqn:L; [|discriminate]. injection Ha as <-.
  destruct (get_some_in k _ v G) as (k' & Hin & He). exists k', r. split; [|split; [exact He|reflexivity]].
  apply qualifying_rows. split; [exists v; split; assumption|].
  intros [o m] Hc. rewrite Forall_forall in F.
  rewrite <- (sat_eq_key k k' o m Dk (wf_In _ k' v Hwf Hin) (F _ Hc) He). exact (Hs _ Hc).
Qed.
