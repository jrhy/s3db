(* StmtProofs.v — the table model (Insert / Update / Delete of vtable_common.go on top of the
   kv handle) refines a plain map from keys to rows, for one writer with non-decreasing
   write times; and keeps the invariant the convergence theorems (C01) rely on. *)
From S3db Require Import Base KeyOrder RowMerge Tree KvProto Inst Stmt.
From S3db.proofs Require Import RowMergeProofs TreeProofs EqbProofs.
Import ListNotations.
Open Scope Z_scope.

Section StmtRefine.
Variable n : nat.
Variable bf : Z.
Notation cfg := (cfg_rows bf).

(* every entry is SQL-reachable (val_inv) and not newer than tmax *)
Definition entry_ok (tmax : time) (v : cval row) : Prop := val_inv n v /\ md v <= tmax.
Definition tree_ok (tmax : time) (t : tree (cval row)) : Prop := wf t /\ vals_in (entry_ok tmax) t.
Definition TInv (tmax : time) (tb : table) : Prop :=
  tree_ok tmax (h_tree (tb_h tb)) /\ h_ro (tb_h tb) = false /\ tb_ncols tb = n.

(* the rows a SELECT sees *)
Definition vals_of (r : row) : list sval :=
  map (fun c => match c with Some c => cv c | None => VNull end) (cols r).
Definition live_vals (o : option (cval row)) : option (list sval) :=
  match o with
  | Some v => match payload v with
              | Some r => if del r then None else Some (vals_of r)
              | None => None
              end
  | None => None
  end.
Definition abs (tb : table) (k : sval) : option (list sval) := live_vals (t_get k (h_tree (tb_h tb))).

Lemma entry_ok_mono t1 t2 v : t1 <= t2 -> entry_ok t1 v -> entry_ok t2 v.
Proof. intros H [I L]. split; [exact I|lia]. Qed.

Lemma tree_ok_mono t1 t2 t : t1 <= t2 -> tree_ok t1 t -> tree_ok t2 t.
Proof.
  intros H [W V]. split; [exact W|]. revert V. apply Forall_impl.
  intros kv. apply entry_ok_mono. exact H.
Qed.

(* the handle leaves out the insertion when the entry is stored already, which gives the same tree *)
Lemma h_update_insert (h : rhandle) k cv0 :
  h_tree (h_update cfg h k cv0) = t_insert k (crdt_update (src_of h) cv0 (t_get k (h_tree h))) (h_tree h).
Proof.
  unfold h_update. cbn [h_tree].
  destruct (t_get k (h_tree h)) as [e|] eqn:G; [|reflexivity].
  destruct (c_veq cfg e _) eqn:E; [|reflexivity]. cbn [negb].
  rewrite <- (cval_row_eqb_eq _ _ E). symmetry. exact (insert_same k e _ G).
Qed.

Lemma h_update_ro (h : rhandle) k cv0 : h_ro (h_update cfg h k cv0) = h_ro h.
Proof. reflexivity. Qed.

Definition new_live (vals : list sval) : row := {| del := false; doff := 0; cols := cols_of_values vals |}.
Definition new_dead : row := {| del := true; doff := 0; cols := [] |}.

Lemma cols_of_values_inv vals : Forall col_inv (cols_of_values vals).
Proof. induction vals; cbn; constructor; auto. reflexivity. Qed.

Lemma new_live_inv vals : length vals = n -> row_inv n (new_live vals).
Proof.
  intros L. split; [reflexivity|]. split; [discriminate|]. intros _.
  split; [unfold new_live, cols_of_values; cbn; rewrite map_length; exact L | apply cols_of_values_inv].
Qed.

Lemma new_dead_inv : row_inv n new_dead.
Proof. split; [reflexivity|]. split; [reflexivity|]. discriminate. Qed.

Lemma vals_of_new_live vals : vals_of (new_live vals) = vals.
Proof. unfold vals_of, new_live, cols_of_values. cbn. rewrite map_map. cbn. apply map_id. Qed.

(* getRow under the invariant: what it answers, what a SELECT sees of that, and what a write at a
   time t >= every stored time makes of it ([time_zero <= t]: for an absent key getRow answers with
   Go's zero time, which the merge compares with t) *)
Lemma get_row_inv tmax (h : rhandle) k :
  vals_in (entry_ok tmax) (h_tree h) ->
  exists found old ot,
    get_row h k = Some (found, old, ot) /\
    live_vals (t_get k (h_tree h)) = (if found && negb (del old) then Some (vals_of old) else None) /\
    (found = true -> row_inv n old /\ ot <= tmax) /\
    forall t r2, tmax <= t -> time_zero <= t -> row_inv n r2 ->
      merge_rows ot old t r2 t = r2 /\
      exists p, crdt_update (src_of h) (mk_set t r2) (t_get k (h_tree h)) =
                {| md := t; tomb := 0; prev := p; payload := Some r2 |}.
Proof.
  intros V. unfold get_row, kv_get, live_vals.
  destruct (t_get k (h_tree h)) as [v|] eqn:E.
  - destruct (get_vals (entry_ok tmax) k (h_tree h) v V E) as [(T & r & P & I) L].
    unfold crdt_visible. rewrite T. cbn [Z.eqb]. rewrite P.
    exists true, r, (md v). split; [reflexivity|]. split; [destruct (del r); reflexivity|]. split; [auto|].
    intros t r2 Hle Hz I2. split; [apply (merge_rows_le n); [lia | assumption | assumption]|].
    unfold crdt_update, mk_set, lww_pick, tombstoned. cbn [tomb md payload]. rewrite T. cbn [Z.eqb negb orb].
    destruct (Z.leb_spec (md v) t); [eexists; reflexivity|lia].
  - exists false, empty_row, time_zero. split; [reflexivity|]. split; [reflexivity|]. split; [discriminate|].
    intros t r2 Hle Hz I2. split; [apply (merge_rows_empty n); assumption|]. eexists. reflexivity.
Qed.

Lemma stored_entry_ok t r2 p : row_inv n r2 ->
  entry_ok t {| md := t; tomb := 0; prev := p; payload := Some r2 |}.
Proof. intros I. split; [|cbn; lia]. split; [reflexivity|]. exists r2. auto. Qed.

(* one statement's write: getRow's answer, the key's visible row read off it, and the table after
   storing row r2 for [key] at time t: [key] shows r2, nothing else changes *)
Lemma write_entry tmax tb t key r2 :
  TInv tmax tb -> tmax <= t -> time_zero <= t -> D key -> row_inv n r2 ->
  exists found old ot,
    get_row (tb_h tb) key = Some (found, old, ot) /\
    abs tb key = (if found && negb (del old) then Some (vals_of old) else None) /\
    (found = true -> row_inv n old /\ ot <= tmax) /\
    exists h',
      kv_set cfg (tb_h tb) t key (merge_rows ot old t r2 t) = Some h' /\
      TInv t (set_h tb h') /\
      forall k, D k ->
        abs (set_h tb h') k =
        match order_t k key with
        | Eq => if del r2 then None else Some (vals_of r2)
        | _ => abs tb k
        end.
Proof.
  intros (TO & RO & NC) Hle Hz Dk I2. destruct (tree_ok_mono tmax t _ Hle TO) as [W V].
  destruct (get_row_inv tmax (tb_h tb) key (proj2 TO)) as (found & old & ot & G & A & Hf & Wr).
  destruct (Wr t r2 Hle Hz I2) as (M & p & SE).
  exists found, old, ot. split; [exact G|]. split; [exact A|]. split; [exact Hf|].
  unfold kv_set. rewrite RO, M. eexists. split; [reflexivity|].
  unfold TInv, tree_ok, abs. cbn [set_h tb_h]. rewrite h_update_insert, SE. split.
  - split; [split|split; [exact RO|exact NC]].
    + apply insert_wf; assumption.
    + apply insert_vals; [apply stored_entry_ok; exact I2|exact V].
  - intros k Dk2. rewrite get_insert by assumption. destruct (order_t k key); reflexivity.
Qed.

Lemma match_nonnull {A} key (a b : A) : key <> VNull ->
  match key with VNull => a | _ => b end = b.
Proof. destruct key; congruence. Qed.

Theorem insert_refines tmax tb t key vals :
  TInv tmax tb -> tmax <= t -> time_zero <= t -> length vals = n -> D key ->
  match abs tb key with
  | Some _ => tbl_insert cfg tb t key vals = (tb, ErrPK)
  | None => exists tb', tbl_insert cfg tb t key vals = (tb', OK) /\ TInv t tb' /\
              forall k, D k -> abs tb' k = match order_t k key with Eq => Some vals | _ => abs tb k end
  end.
Proof.
  intros TI Hle Hz Len Dk.
  destruct (write_entry tmax tb t key (new_live vals) TI Hle Hz Dk (new_live_inv vals Len))
    as (found & old & ot & G & A & Hf & h' & KS & TI' & Abs').
  unfold tbl_insert. rewrite match_nonnull by (intros ->; discriminate Dk). rewrite G, A.
  (* the guard fires exactly on a live row: a deleted one is never newer than t *)
  assert (Guard : found && (negb (del old) || (t <? ot + doff old)) = found && negb (del old)).
  { destruct found; [|reflexivity]. destruct (Hf eq_refl) as [(D0 & _) Lot]. rewrite D0.
    destruct (Z.ltb_spec t (ot + 0)); [lia|]. rewrite orb_false_r. reflexivity. }
  rewrite Guard. destruct (found && negb (del old)); [reflexivity|].
  fold (new_live vals). rewrite KS. eexists. split; [reflexivity|]. split; [exact TI'|].
  intros k Dk2. rewrite (Abs' k Dk2), vals_of_new_live. reflexivity.
Qed.

(* UPDATE assigns every column, as SQLite always does *)
Theorem update_refines tmax tb t key vals :
  TInv tmax tb -> tmax <= t -> time_zero <= t -> length vals = n -> D key ->
  match abs tb key with
  | None => tbl_update cfg tb t key (map Some vals) = (tb, OK)
  | Some _ => exists tb', tbl_update cfg tb t key (map Some vals) = (tb', OK) /\ TInv t tb' /\
              forall k, D k -> abs tb' k = match order_t k key with Eq => Some vals | _ => abs tb k end
  end.
Proof.
  intros TI Hle Hz Len Dk.
  destruct (write_entry tmax tb t key (new_live vals) TI Hle Hz Dk (new_live_inv vals Len))
    as (found & old & ot & G & A & _ & h' & KS & TI' & Abs').
  unfold tbl_update. rewrite G, A.
  destruct found; cbn [andb negb orb]; [|reflexivity].
  destruct (del old); cbn [negb]; [reflexivity|].
  replace {| del := false; doff := 0;
             cols := map (fun a => match a with Some v => Some {| uoff := 0; cv := v |} | None => None end) (map Some vals) |}
    with (new_live vals) by (unfold new_live, cols_of_values; rewrite map_map; reflexivity).
  rewrite KS. eexists. split; [reflexivity|]. split; [exact TI'|].
  intros k Dk2. rewrite (Abs' k Dk2), vals_of_new_live. reflexivity.
Qed.

Theorem delete_refines tmax tb t key :
  TInv tmax tb -> tmax <= t -> time_zero <= t -> D key ->
  exists tb', tbl_delete cfg tb t key = (tb', OK) /\ TInv t tb' /\
    forall k, D k -> abs tb' k = match order_t k key with Eq => None | _ => abs tb k end.
Proof.
  intros TI Hle Hz Dk.
  destruct (write_entry tmax tb t key new_dead TI Hle Hz Dk new_dead_inv)
    as (found & old & ot & G & _ & _ & h' & KS & TI' & Abs').
  unfold tbl_delete. rewrite G. fold new_dead. rewrite KS.
  eexists. split; [reflexivity|]. split; [exact TI'|exact Abs'].
Qed.

Theorem rollback_restores tb tb0 :
  tbl_begin tb0 = Some tb -> forall tb', tb_tx tb' = tb_tx tb -> tb_h (tbl_rollback tb') = tb_h tb0.
Proof.
  unfold tbl_begin. destruct (tb_tx tb0); [discriminate|]. intros [= <-] tb' H. unfold tbl_rollback. cbn in H. rewrite H. reflexivity.
Qed.

(* (no invariant needed) the kv gate: a write older than the stored entry leaves the tree as it is *)
Theorem older_write_dropped (h : rhandle) t key r v :
  t_get key (h_tree h) = Some v -> tomb v = 0 -> t < md v ->
  forall h', kv_set cfg h t key r = Some h' -> h_tree h' = h_tree h.
Proof.
  intros G T Hlt h'. unfold kv_set. destruct (h_ro h); [discriminate|]. intros [= <-].
  rewrite h_update_insert. apply insert_same. rewrite G. f_equal.
  unfold crdt_update, lww_pick, mk_set, tombstoned. cbn [tomb md]. rewrite T. cbn [Z.eqb negb orb].
  destruct (Z.leb_spec (md v) t); [lia|reflexivity].
Qed.

(* a retry (same statement, same write time, same values) changes nothing visible *)
Theorem update_retry_idempotent tmax tb t key vals tb1 :
  TInv tmax tb -> tmax <= t -> time_zero <= t -> length vals = n -> D key ->
  tbl_update cfg tb t key (map Some vals) = (tb1, OK) ->
  forall tb2 o, tbl_update cfg tb1 t key (map Some vals) = (tb2, o) ->
    o = OK /\ forall k, D k -> abs tb2 k = abs tb1 k.
Proof.
  intros TI Hle Hz Len Dk E1 tb2 o E2.
  pose proof (update_refines tmax tb t key vals TI Hle Hz Len Dk) as U1.
  destruct (abs tb key) eqn:A.
  - destruct U1 as (tb1' & E1' & TI1 & G1). rewrite E1 in E1'. injection E1' as <-.
    pose proof (update_refines t tb1 t key vals TI1 (Z.le_refl _) Hz Len Dk) as U2.
    rewrite (G1 key Dk), ot_refl in U2 by exact Dk.
    destruct U2 as (tb2' & E2' & _ & G2). rewrite E2 in E2'. injection E2' as <- ->. split; [reflexivity|].
    intros k Dk2. rewrite (G2 k Dk2), (G1 k Dk2). destruct (order_t k key); reflexivity.
  - rewrite E1 in U1. injection U1 as ->.
    rewrite E1 in E2. injection E2 as <- <-. split; reflexivity.
Qed.

Theorem delete_retry_idempotent tmax tb t key tb1 :
  TInv tmax tb -> tmax <= t -> time_zero <= t -> D key ->
  tbl_delete cfg tb t key = (tb1, OK) ->
  forall tb2 o, tbl_delete cfg tb1 t key = (tb2, o) ->
    o = OK /\ forall k, D k -> abs tb2 k = abs tb1 k.
Proof.
  intros TI Hle Hz Dk E1 tb2 o E2.
  destruct (delete_refines tmax tb t key TI Hle Hz Dk) as (tb1' & E1' & TI1 & G1).
  rewrite E1 in E1'. injection E1' as <-.
  destruct (delete_refines t tb1 t key TI1 (Z.le_refl _) Hz Dk) as (tb2' & E2' & _ & G2).
  rewrite E2 in E2'. injection E2' as <- ->. split; [reflexivity|].
  intros k Dk2. rewrite (G2 k Dk2), (G1 k Dk2). destruct (order_t k key); reflexivity.
Qed.

End StmtRefine.

(* every statement leaves the table as it is or does exactly one kv_set *)
Section Wrote.
Variable cfg : KvProto.cfg (V := row).

Definition wrote (tb : table) (t : time) (key : sval) (r : table * outcome_t) : Prop :=
  fst r = tb \/ exists v h', kv_set cfg (tb_h tb) t key v = Some h' /\ fst r = set_h tb h'.

Lemma kv_set_wrote tb t key v :
  wrote tb t key (match kv_set cfg (tb_h tb) t key v with Some h' => (set_h tb h', OK) | None => (tb, ErrOther) end).
Proof. destruct (kv_set cfg (tb_h tb) t key v) as [h'|] eqn:E; [right; eauto|left; reflexivity]. Qed.

(* INSERT answers OK only after a kv_set that succeeded *)
Lemma insert_outcome tb t key vals r : tbl_insert cfg tb t key vals = r ->
  (exists v h', kv_set cfg (tb_h tb) t key v = Some h' /\ r = (set_h tb h', OK)) \/
  fst r = tb /\ snd r <> OK.
Proof.
  unfold tbl_insert.
  assert (N : key = VNull \/ key <> VNull) by (destruct key; auto; right; discriminate).
  destruct N as [->|N]; [intros <-; right; split; [reflexivity|discriminate]|]. rewrite (match_nonnull key _ _ N).
  destruct (get_row (tb_h tb) key) as [[[f o] ot]|]; [|intros <-; right; split; [reflexivity|discriminate]].
  destruct (f && _); [intros <-; right; split; [reflexivity|discriminate]|].
  destruct (kv_set cfg (tb_h tb) t key _) as [h'|] eqn:K; intros <-; [|right; split; [reflexivity|discriminate]].
  left. eexists _, h'. split; [exact K|reflexivity].
Qed.

Lemma insert_wrote tb t key vals : wrote tb t key (tbl_insert cfg tb t key vals).
Proof.
  destruct (insert_outcome tb t key vals _ eq_refl) as [(v & h' & K & E)|[E _]]; [right; rewrite E; eauto|left; exact E].
Qed.

Lemma update_wrote tb t key a : wrote tb t key (tbl_update cfg tb t key a).
Proof.
  unfold tbl_update. destruct (get_row (tb_h tb) key) as [[[f o] ot]|]; [|left; reflexivity].
  destruct (negb f || del o); [left; reflexivity|apply kv_set_wrote].
Qed.

Lemma delete_wrote tb t key : wrote tb t key (tbl_delete cfg tb t key).
Proof.
  unfold tbl_delete. destruct (get_row (tb_h tb) key) as [[[f o] ot]|]; [|left; reflexivity]. apply kv_set_wrote.
Qed.

(* the snapshot taken at BEGIN is not touched *)
Lemma wrote_tx tb t key r : wrote tb t key r -> tb_tx (fst r) = tb_tx tb.
Proof. intros [-> | (v & h' & _ & ->)]; reflexivity. Qed.

Lemma wrote_ro tb t key r : h_ro (tb_h tb) = true -> wrote tb t key r -> fst r = tb.
Proof. intros R [E | (v & h' & K & _)]; [exact E|]. unfold kv_set in K. rewrite R in K. discriminate. Qed.
End Wrote.

(* a statement older than the entry stored for its key leaves the tree as it is *)
Lemma wrote_older bf tb t key r : wrote (cfg_rows bf) tb t key r ->
  forall v, t_get key (h_tree (tb_h tb)) = Some v -> tomb v = 0 -> t < md v ->
  h_tree (tb_h (fst r)) = h_tree (tb_h tb).
Proof.
  intros [-> | (x & h' & K & ->)] v G T Hlt; [reflexivity|].
  exact (older_write_dropped bf (tb_h tb) t key x v G T Hlt h' K).
Qed.
