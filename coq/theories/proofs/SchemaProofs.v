(* SchemaProofs.v — the CREATE VIRTUAL TABLE argument model (Schema.v): what is accepted is
   declared as specified, and the unsupported or malformed is rejected, for EVERY token list
   and EVERY argument list:
   - an accepted column specification has no UNIQUE and no token the grammar has no rule for
     (DEFAULT, literals, ...) anywhere, has pairwise distinct column names, at most one key
     column, which is one of the columns and whose index is reported; the declared columns are
     exactly the parsed ones, in order; a table without key gets the hidden rowid;
   - an accepted argument list has pairwise distinct options, all known, numeric options well
     formed, every valued option with a value, and exactly its columns option decides the
     declaration. *)
From S3db Require Import Base Schema.
From S3db.proofs Require Import EqbProofs.
Import ListNotations.
Open Scope Z_scope.

Lemma existsb_eqb_notin {A} (eqb : A -> A -> bool) x l :
  eqb x x = true -> existsb (eqb x) l = false -> ~ In x l.
Proof. intros R E Hin. rewrite <- not_true_iff_false in E. apply E, existsb_exists. exists x. auto. Qed.

Definition count (p : ctok -> bool) (ts : list ctok) : nat := length (filter p ts).
Definition is_unique t := match t with KUnique => true | _ => false end.
Definition is_other t := match t with KOther => true | _ => false end.

Lemma count_0 p ts t : count p ts = 0%nat -> p t = true -> ~ In t ts.
Proof.
  unfold count. intros H Hp Hin. assert (F : In t (filter p ts)) by (apply filter_In; auto).
  destruct (filter p ts); [destruct F|discriminate].
Qed.

(* A parser that goes from tokens ts and e errors to tokens rest and e' errors has counted an error
   for every UNIQUE it passed, and has passed no KOther.  Said of the two token lists as wholes,
   not of the prefix consumed, the fact composes by arithmetic alone; and since every other token
   leaves both counts as they are, [eats (t :: ts) rest e e'] and [eats ts rest e e'] are then
   convertible, so that the proofs below pass such tokens without a step of their own. *)
Definition eats (ts rest : list ctok) (e e' : nat) : Prop :=
  (e + count is_unique ts <= e' + count is_unique rest)%nat /\ count is_other ts = count is_other rest.

Lemma eats_refl ts e : eats ts ts e e.
Proof. split; reflexivity. Qed.
Lemma eats_trans ts mid rest e1 e2 e3 : eats ts mid e1 e2 -> eats mid rest e2 e3 -> eats ts rest e1 e3.
Proof. unfold eats. lia. Qed.
Lemma eats_le ts rest e1 e1' e2 e2' : eats ts rest e1 e1' -> (e2 <= e1)%nat -> (e1' <= e2')%nat -> eats ts rest e2 e2'.
Proof. unfold eats. lia. Qed.
Lemma eats_unique ts rest e e' : eats ts rest (S e) e' -> eats (KUnique :: ts) rest e e'.
Proof. unfold eats, count. cbn [filter is_unique is_other length]. lia. Qed.

Lemma cc_spec fuel : forall n c pk errs ts,
  let r := col_constraints fuel n c pk errs ts in eats ts (snd r) errs (snd (fst r)).
Proof.
  induction fuel as [|f IH]; intros n c pk errs ts; cbn [col_constraints]; [apply eats_refl|].
  destruct ts as [|[] ts']; try apply eats_refl.
  - destruct pk as [|p pk]; [exact (IH n c [n] errs ts')|apply (eats_le _ _ _ _ _ _ (IH n c (p :: pk) (S errs) ts')); auto].
  - exact (IH n _ pk errs ts').
  - exact (eats_unique _ _ _ _ (IH n _ pk (S errs) ts')).
Qed.

Lemma pk_names_spec fuel e : forall pk ts,
  match pk_names fuel pk ts with Some (_, rest) => eats ts rest e e | None => True end.
Proof.
  induction fuel as [|f IH]; intros pk ts; cbn [pk_names]; [exact I|].
  destruct ts as [|[] [|[] ts'']]; try exact I; try exact (eats_refl _ e). exact (IH _ _).
Qed.

(* the optional type after a column's name is passed like any token that counts nothing *)
Lemma type_passed ts rest e e' :
  eats (snd (match ts with KType t :: r => (Some t, r) | _ => (None, ts) end)) rest e e' -> eats ts rest e e'.
Proof. destruct ts as [|[] r]; exact (fun H => H). Qed.

Lemma parse_item_spec s ts :
  match parse_item s ts with Some (s', rest) => eats ts rest (s_errs s) (s_errs s') | None => True end.
Proof.
  unfold parse_item. destruct ts as [|[] ts']; try exact I.
  - pose proof (type_passed ts') as P. destruct (match ts' with KType t :: r => _ | _ => _ end) as [ty ts1].
    pose proof (cc_spec (length ts1) s0 (Build_col s0 ty false false) (s_pk s) (s_errs s) ts1) as EC.
    destruct (col_constraints _ _ _ _ _ _) as [[[c1 pk] errs] ts2]. exact (P _ _ _ EC).
  - destruct ts' as [|[] ts'']; try exact I.
    pose proof (pk_names_spec (length ts'') (s_errs s) (s_pk s) ts'') as EP.
    destruct (pk_names _ _ _) as [[pk [|[] r]]|]; try exact I. cbn [s_errs].
    destruct (s_pk s); [exact EP|apply (eats_le _ _ _ _ _ _ EP); auto].
Qed.

Lemma parse_items_spec fuel : forall s ts n,
  let '(s', rest, _) := parse_items fuel s ts n in eats ts rest (s_errs s) (s_errs s').
Proof.
  induction fuel as [|f IH]; intros s ts n; cbn [parse_items]; [apply eats_refl|].
  pose proof (parse_item_spec s ts) as EI. destruct (parse_item s ts) as [[s1 ts1]|]; [|apply eats_refl].
  destruct ts1 as [|[] ts2]; try exact EI.
  specialize (IH s1 ts2 (S n)). destruct (parse_items _ _ _ _) as [[s' rest] n'].
  exact (eats_trans _ _ _ _ _ _ EI IH).
Qed.

Theorem parsed_has_no_unique_and_no_unknown_token ts s :
  parse_schema ts = Some s -> ~ In KUnique ts /\ ~ In KOther ts.
Proof.
  unfold parse_schema. pose proof (parse_items_spec (S (length ts)) empty_schema ts 0) as E.
  destruct (parse_items _ _ _ _) as [[s' rest] n]. destruct E as [Hu Ho].
  destruct (Nat.ltb_spec 0 (s_errs s')); [discriminate|].
  destruct (Nat.eqb n 0); [discriminate|]. destruct rest; [|discriminate]. intros _.
  split; [apply (count_0 is_unique)|apply (count_0 is_other)]; trivial. change (0 + count is_unique ts <= s_errs s' + 0)%nat in Hu. lia.
Qed.

Lemma unsupported_is_rejected ts : In KUnique ts \/ In KOther ts -> convert_schema ts = None.
Proof.
  intros Hin. unfold convert_schema. destruct (parse_schema ts) as [s|] eqn:E; [|reflexivity].
  apply parsed_has_no_unique_and_no_unknown_token in E. tauto.
Qed.

Lemma has_dup_nodup l : has_dup l = false -> NoDup l.
Proof.
  induction l as [|x l IH]; cbn [has_dup]; intros H; [constructor|].
  apply orb_false_iff in H. destruct H as [H1 H2].
  constructor; [exact (existsb_eqb_notin _ _ _ (bytes_eqb_refl x) H1)|exact (IH H2)].
Qed.

Lemma index_of_spec k cs : forall i,
  existsb (fun c => bytes_eqb (c_name c) k) cs = true ->
  exists n c, index_of k cs i = i + Z.of_nat n /\ nth_error cs n = Some c /\ c_name c = k.
Proof.
  induction cs as [|c cs IH]; intros i H; cbn [existsb] in H; [discriminate|]. cbn [index_of].
  destruct (bytes_eqb (c_name c) k) eqn:E.
  - exists 0%nat, c. split; [lia|]. split; [reflexivity|apply bytes_eqb_eq; exact E].
  - destruct (IH (i + 1) H) as (n & c0 & Hi & Hn). exists (S n), c0. split; [lia|exact Hn].
Qed.

(* what an accepted specification declares *)
Theorem accepted_matches_specification ts d :
  convert_schema ts = Some d ->
  exists s, parse_schema ts = Some s /\
    d_cols d = s_cols s /\
    NoDup (map c_name (d_cols d)) /\
    (length (s_pk s) <= 1)%nat /\
    (d_rowid d = true <-> s_pk s = []) /\
    (forall k, s_pk s = [k] ->
       exists c, nth_error (d_cols d) (Z.to_nat (d_keycol d)) = Some c /\ c_name c = k).
Proof.
  (* only three fields of the declaration are spoken of: its text is dropped before it is ever substituted *)
  unfold convert_schema. destruct (parse_schema ts) as [s|]; [|discriminate]. destruct d as [tx kc rid cs].
  cbn [d_cols d_rowid d_keycol]. intros H. exists s. split; [reflexivity|]. revert H.
  destruct (Nat.ltb_spec 1 (length (s_pk s))) as [Hlt|Hlen]; [discriminate|].
  destruct (has_dup (map c_name (s_cols s))) eqn:Hd; [discriminate|]. apply has_dup_nodup in Hd.
  revert Hlen. destruct (s_pk s) as [|k pk']; intros Hlen;
    [|destruct (negb (existsb (fun c => bytes_eqb (c_name c) k) (s_cols s))) eqn:Ex; [discriminate|]];
    intros [= _ <- <- <-];
    (split; [reflexivity|]); (split; [exact Hd|]); (split; [exact Hlen|]).
  - split; [tauto|]. intros k0 [=].
  - split; [split; discriminate|]. intros k0 [= <- _]. apply negb_false_iff in Ex.
    destruct (index_of_spec k (s_cols s) 0 Ex) as (n & c & Hi & Hn). rewrite Hi, Z.add_0_l, Nat2Z.id. exists c. exact Hn.
Qed.

Definition known_opt (k : Z) : Prop := 0 <= k <= 6.

(* the four ways the loop accepts an argument *)
Inductive arg_ok : Z -> optval -> Prop :=
| ok_columns ts : convert_schema ts <> None -> arg_ok 0 (OVCols ts)
| ok_number k : k = 1 \/ k = 2 -> arg_ok k (OVInt true)
| ok_readonly : arg_ok 3 OVNone
| ok_valued k v : k = 4 \/ k = 5 \/ k = 6 -> v <> OVNone -> arg_ok k v.

(* the same as implications from the option number *)
Lemma arg_ok_good k v : arg_ok k v ->
  known_opt k /\
  (k = 0 -> exists ts, v = OVCols ts /\ convert_schema ts <> None) /\
  ((k = 1 \/ k = 2) -> v = OVInt true) /\
  ((k = 4 \/ k = 5 \/ k = 6) -> v <> OVNone).
Proof.
  unfold known_opt. intros [ts Hc|k' Hk| |k' v' Hk Hv].
  - split; [lia|]. split; [eauto|]. split; intros; lia.
  - split; [lia|]. split; [lia|]. split; [reflexivity|lia].
  - split; [lia|]. split; [lia|]. split; lia.
  - split; [lia|]. split; [lia|]. split; [lia|intros _; exact Hv].
Qed.

(* one turn of the loop: the option is new and its value well formed, and the loop goes on with
   the declaration it had, or, after the columns option, with the one that converts to *)
Lemma arg_loop_step k v rest seen d ro d' ro' :
  arg_loop ((k, v) :: rest) seen d ro = ArgOK d' ro' ->
  ~ In k seen /\ arg_ok k v /\
  exists d1 ro1, arg_loop rest (k :: seen) d1 ro1 = ArgOK d' ro' /\
    (d1 = d \/ exists ts, (k, v) = (0, OVCols ts) /\ convert_schema ts = d1).
Proof.
  cbn [arg_loop]. destruct (existsb (Z.eqb k) seen) eqn:Es; [discriminate|]. intros H.
  split; [exact (existsb_eqb_notin _ _ _ (Z.eqb_refl k) Es)|].
  (* the loop's tests in the loop's order *)
  destruct (Z.eqb_spec k 0) as [->|_].
  { destruct v as [ts| | |]; try discriminate H. destruct (convert_schema ts) as [dd|] eqn:Ec; [|discriminate].
    split; [apply ok_columns; rewrite Ec; discriminate|]. exists (Some dd), ro. eauto. }
  destruct ((k =? 1) || (k =? 2)) eqn:E12.
  { destruct v as [|[|]| |]; try discriminate H. split; [apply ok_number; lia|eauto]. }
  destruct (Z.eqb_spec k 3) as [->|_].
  { destruct v; try discriminate H. split; [apply ok_readonly|eauto]. }
  destruct ((k =? 4) || (k =? 5) || (k =? 6)) eqn:E456; [|discriminate].
  split; [apply ok_valued; [lia|intros ->; discriminate H]|]. destruct v; try discriminate H; eauto.
Qed.

Lemma arg_loop_spec args : forall seen d ro d' ro',
  arg_loop args seen d ro = ArgOK d' ro' ->
  NoDup (map fst args) /\
  (forall k v, In (k, v) args -> ~ In k seen /\ arg_ok k v) /\
  (d = Some d' \/ exists ts, In (0, OVCols ts) args /\ convert_schema ts = Some d').
Proof.
  induction args as [|[k v] rest IH]; intros seen d ro d' ro' H.
  - cbn in H. destruct d; [|discriminate]. injection H as -> <-. split; [constructor|]. split; [intros k v []|]. left. reflexivity.
  - apply arg_loop_step in H. destruct H as (Hns & G & d1 & ro1 & H & Hd).
    destruct (IH _ _ _ _ _ H) as (B & A & C). split; [|split].
    + cbn [map fst]. constructor; [|exact B]. intros Hin. apply in_map_iff in Hin.
      destruct Hin as ([k0 v0] & E & Hin). apply (proj1 (A _ _ Hin)). left. symmetry. exact E.
    + intros k0 v0 [E|Hin]; [injection E as <- <-; auto|].
      destruct (A k0 v0 Hin) as (Ns & R). split; [|exact R]. intros Hi. apply Ns. right. exact Hi.
    + destruct C as [C|(ts & Hin & Hc)]; [|right; exists ts; split; [right; exact Hin|exact Hc]].
      destruct Hd as [->|(ts & -> & Ec)]; [left; exact C|].
      right. exists ts. split; [left; reflexivity|congruence].
Qed.
