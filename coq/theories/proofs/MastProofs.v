(* MastProofs.v — the node-level tree (Mast.v) refines the sorted association list (Tree.v):
   flattening a tree in order commutes with Insert, Delete, grow, shrink and node merging, Get
   only ever answers with the entry the list holds, and Insert panics only on a key that the list
   holds and Get does not find.  Keys range over the safe domain D (where
   Key.Order is a total order, KeyOrderProofs.v); nothing is assumed about Key.Layer here — the
   placement of a key decides WHERE it is stored, never WHAT the tree contains. *)
From S3db Require Import Base KeyOrder Tree Mast.
From S3db.proofs Require Import TreeProofs.
Import ListNotations.
Open Scope Z_scope.

Section MastProofs.
Context {V : Type}.
Notation mt := (mt V).
Notation ml := (ml V).
Notation tree := (tree V).

Scheme mt_mind := Induction for Mast.mt Sort Prop
  with ml_mind := Induction for Mast.ml Sort Prop.
Combined Scheme mt_ml_ind from mt_mind, ml_mind.

(* cbn on the mutually recursive definitions unfolds to an anonymous fix that nothing matches
   afterwards: each clause is an equation (by reflexivity) and the proofs rewrite with it *)
Lemma flat_MEnd (l : ml) : flat (MEnd l) = flat_l l. Proof. reflexivity. Qed.
Lemma flat_MCons (l : ml) k v r : flat (MCons l k v r) = flat_l l ++ (k, v) :: flat r. Proof. reflexivity. Qed.
Lemma flat_LNil : flat_l (@LNil V) = []. Proof. reflexivity. Qed.
Lemma flat_LNode (n : mt) : flat_l (LNode n) = flat n. Proof. reflexivity. Qed.

Lemma split_MEnd k (l : ml) : split k (MEnd l) =
  match split_l k l with Some (a, b) => Some (MEnd a, MEnd b) | None => None end.
Proof. reflexivity. Qed.
Lemma split_MCons k (l : ml) k' v r : split k (MCons l k' v r) =
  match order_t k' k with
  | Eq => None
  | Gt => match split_l k l with Some (a, b) => Some (MEnd a, MCons b k' v r) | None => None end
  | Lt => match split k r with Some (a, b) => Some (MCons l k' v a, b) | None => None end
  end.
Proof. reflexivity. Qed.
Lemma split_LNil k : split_l k (@LNil V) = Some (LNil, LNil). Proof. reflexivity. Qed.
Lemma split_LNode k (n : mt) : split_l k (LNode n) =
  match split k n with Some (a, b) => Some (mk_link a, mk_link b) | None => None end.
Proof. reflexivity. Qed.

Lemma ins_MEnd d k v (l : ml) : ins d k v (MEnd l) =
  match d with
  | O => match split_l k l with Some (a, b) => Some (MCons a k v (MEnd b), true) | None => None end
  | S d' => match ins_l d' k v l with Some (c, added) => Some (MEnd (LNode c), added) | None => None end
  end.
Proof. reflexivity. Qed.
Lemma ins_MCons d k v (l : ml) k' v' r : ins d k v (MCons l k' v' r) =
  match order_t k k' with
  | Gt => match ins d k v r with Some (r', added) => Some (MCons l k' v' r', added) | None => None end
  | Eq => match d with O => Some (MCons l k' v r, false) | S _ => None end
  | Lt =>
      match d with
      | O => match split_l k l with
             | Some (a, b) => Some (MCons a k v (MCons b k' v' r), true)
             | None => None
             end
      | S d' => match ins_l d' k v l with
                | Some (c, added) => Some (MCons (LNode c) k' v' r, added)
                | None => None
                end
      end
  end.
Proof. reflexivity. Qed.
Lemma ins_LNil d k v : ins_l d k v (@LNil V) = Some (chain d k v, true). Proof. reflexivity. Qed.
Lemma ins_LNode d k v (n : mt) : ins_l d k v (LNode n) = ins d k v n. Proof. reflexivity. Qed.

Lemma del_MEnd d k (l : ml) : del d k (MEnd l) =
  match d with
  | O => None
  | S d' => match del_l d' k l with Some c => Some (MEnd (mk_link c)) | None => None end
  end.
Proof. reflexivity. Qed.
(* the entry at the head goes: its left child is merged into what follows it *)
Lemma del_MCons d k (l : ml) k' v' r : del d k (MCons l k' v' r) =
  match order_t k k' with
  | Gt => match del d k r with Some r' => Some (MCons l k' v' r') | None => None end
  | Eq => match d with O => Some (merge_n (MEnd l) r) | S _ => None end
  | Lt => match d with
          | O => None
          | S d' => match del_l d' k l with Some c => Some (MCons (mk_link c) k' v' r) | None => None end
          end
  end.
Proof. reflexivity. Qed.
Lemma del_LNil d k : del_l d k (@LNil V) = None. Proof. reflexivity. Qed.
Lemma del_LNode d k (n : mt) : del_l d k (LNode n) = del d k n. Proof. reflexivity. Qed.

Lemma get_MEnd d k (l : ml) : get d k (MEnd l) = match d with O => None | S d' => get_l d' k l end.
Proof. reflexivity. Qed.
Lemma get_MCons d k (l : ml) k' v' r : get d k (MCons l k' v' r) =
  match order_t k k' with
  | Gt => get d k r
  | Eq => match d with O => Some v' | S _ => None end
  | Lt => match d with O => None | S d' => get_l d' k l end
  end.
Proof. reflexivity. Qed.
Lemma get_LNil d k : get_l d k (@LNil V) = None. Proof. reflexivity. Qed.
Lemma get_LNode d k (n : mt) : get_l d k (LNode n) = get d k n. Proof. reflexivity. Qed.

Lemma merge_MCons (l : ml) k v r b : merge_n (MCons l k v r) b = MCons l k v (merge_n r b). Proof. reflexivity. Qed.
Lemma merge_MEnd_MEnd (la lb : ml) : merge_n (MEnd la) (MEnd lb) = MEnd (merge_l la lb). Proof. reflexivity. Qed.
Lemma merge_MEnd_MCons (la lb : ml) k v r : merge_n (MEnd la) (MCons lb k v r) = MCons (merge_l la lb) k v r.
Proof. reflexivity. Qed.
Lemma merge_LNil (lb : ml) : merge_l LNil lb = lb. Proof. reflexivity. Qed.
Lemma merge_LNode_LNil (a : mt) : merge_l (LNode a) LNil = LNode a. Proof. reflexivity. Qed.
Lemma merge_LNode_LNode (a b : mt) : merge_l (LNode a) (LNode b) = LNode (merge_n a b). Proof. reflexivity. Qed.

Definition below (k : sval) (t : tree) : Prop := Forall (fun kv => order_t k (fst kv) = Gt) t.

Lemma below_app k (a b : tree) : below k (a ++ b) <-> below k a /\ below k b.
Proof. unfold below. apply Forall_app. Qed.

Lemma keys_in_app (a b : tree) : keys_in (a ++ b) <-> keys_in a /\ keys_in b.
Proof. unfold keys_in. apply Forall_app. Qed.

Lemma wf_app (a b : tree) : wf a -> wf b -> Forall (fun x => all_above (fst x) b) a -> wf (a ++ b).
Proof.
  induction a as [|[k1 v1] a IH]; cbn [app]; intros Wa Wb Hab; [assumption|].
  inversion Wa as [|? ? ? Hk Hw Ha]; subst. inversion Hab as [|? ? H1 H2]; subst.
  constructor; [assumption | apply IH; assumption | apply all_above_app; split; assumption].
Qed.

Lemma wf_MCons_inv (l : ml) k1 v1 r : wf (flat_l l ++ (k1, v1) :: flat r) ->
  wf (flat_l l) /\ wf (flat r) /\ D k1.
Proof.
  intros Hw. destruct (wf_app_inv _ _ Hw) as (Wl & Wr1 & _). inversion Wr1; subst. auto.
Qed.

Lemma flat_mk_link (n : mt) : flat_l (mk_link n) = flat n.
Proof. destruct n as [[|c]|]; reflexivity. Qed.

Lemma node_of_mk_link (n : mt) : node_of (mk_link n) = n.
Proof. destruct n as [[|c]|]; reflexivity. Qed.

Lemma flat_node_of (l : ml) : flat (node_of l) = flat_l l.
Proof. destruct l; reflexivity. Qed.

Lemma flat_merge :
  (forall a b : mt, flat (merge_n a b) = flat a ++ flat b) /\
  (forall la lb : ml, flat_l (merge_l la lb) = flat_l la ++ flat_l lb).
Proof.
  apply mt_ml_ind.
  - intros la IHl b. destruct b as [lb|lb k v r].
    + rewrite merge_MEnd_MEnd. exact (IHl lb).
    + rewrite merge_MEnd_MCons, !flat_MCons, flat_MEnd, IHl, app_assoc. reflexivity.
  - intros l _ k v r IHr b. rewrite merge_MCons, !flat_MCons, IHr, <- app_assoc. reflexivity.
  - intros lb. rewrite merge_LNil. reflexivity.
  - intros a IHa lb. destruct lb as [|b].
    + rewrite merge_LNode_LNil. symmetry. apply app_nil_r.
    + rewrite merge_LNode_LNode. exact (IHa b).
Qed.

Lemma flat_cat (c : mt) k v rest : flat (cat c k v rest) = flat c ++ (k, v) :: flat rest.
Proof.
  induction c as [l|l k1 v1 r IH]; cbn [cat]; rewrite !flat_MCons; [reflexivity|].
  rewrite IH, <- app_assoc. reflexivity.
Qed.

Lemma flat_shrink (n : mt) : flat (shrink_node n) = flat n.
Proof.
  induction n as [l|l k v r IH]; cbn [shrink_node]; [apply flat_node_of|].
  destruct l as [|c]; [|rewrite flat_cat]; rewrite !flat_MCons, IH; reflexivity.
Qed.

(* grow_node by recursion on the node: a key that moves up closes the child collected so far; any other
   key joins, with its left link, the first child of what follows *)
Definition push (l : ml) (k : sval) (v : V) (g : mt) : mt :=
  match g with
  | MEnd c => MEnd (mk_link (MCons l k v (node_of c)))
  | MCons c k' v' r => MCons (mk_link (MCons l k v (node_of c))) k' v' r
  end.

Lemma grow_MEnd promote (l : ml) : grow_node promote (MEnd l) = MEnd (mk_link (MEnd l)).
Proof. reflexivity. Qed.
Lemma grow_MCons promote (l : ml) k v r : grow_node promote (MCons l k v r) =
  if promote k then MCons (mk_link (MEnd l)) k v (grow_node promote r) else push l k v (grow_node promote r).
Proof.
  unfold grow_node. cbn [grow_cut]. destruct (grow_cut promote r) as [p rest]. destruct (promote k); [reflexivity|].
  destruct rest as [|[[k' v'] p'] rest]; cbn [grow_build push]; rewrite node_of_mk_link; reflexivity.
Qed.

Lemma shrink_child (p : mt) k v g : shrink_node (MCons (mk_link p) k v g) = cat p k v (shrink_node g).
Proof. destruct p as [[|c]|]; reflexivity. Qed.

Lemma shrink_push (l : ml) k v g : shrink_node (push l k v g) = MCons l k v (shrink_node g).
Proof.
  destruct g as [c|c k' v' r]; cbn [push].
  - cbn [shrink_node]. apply node_of_mk_link.
  - rewrite shrink_child. destruct c; reflexivity.
Qed.

(* shrink undoes grow: splicing the children of the grown root back gives the node that was cut up *)
Lemma shrink_grow promote (n : mt) : shrink_node (grow_node promote n) = n.
Proof.
  induction n as [l|l k v r IH]; [rewrite grow_MEnd; cbn [shrink_node]; apply node_of_mk_link|].
  rewrite grow_MCons. destruct (promote k); [rewrite shrink_child|rewrite shrink_push]; rewrite IH; reflexivity.
Qed.

Lemma flat_grow promote (n : mt) : flat (grow_node promote n) = flat n.
Proof. rewrite <- (flat_shrink (grow_node promote n)), shrink_grow. reflexivity. Qed.

Definition split_spec (k : sval) (t a b : tree) : Prop :=
  a ++ b = t /\ below k a /\ all_above k b.

(* what split does, whichever way it ends: it panics only on a key the sub-tree holds *)
Lemma split_flat :
  (forall (n : mt) k, D k -> wf (flat n) ->
      match split k n with
      | Some (a, b) => split_spec k (flat n) (flat a) (flat b)
      | None => t_get k (flat n) <> None
      end) /\
  (forall (l : ml) k, D k -> wf (flat_l l) ->
      match split_l k l with
      | Some (a, b) => split_spec k (flat_l l) (flat_l a) (flat_l b)
      | None => t_get k (flat_l l) <> None
      end).
Proof.
  unfold split_spec. apply mt_ml_ind.
  - intros l IHl k Dk Hw. rewrite split_MEnd, flat_MEnd. specialize (IHl k Dk Hw).
    destruct (split_l k l) as [[la lb]|]; [rewrite !flat_MEnd|]; exact IHl.
  - intros l IHl k1 v1 r IHr k Dk Hw. rewrite flat_MCons in Hw |- *.
    destruct (wf_MCons_inv _ _ _ _ Hw) as (Wl & Wr & Dk1). pose proof (pivot_sides k _ _ _ _ Dk Hw) as Hp.
    (* split compares the stored key with k, the list operations k with the stored key *)
    rewrite split_MCons, (get_pivot k _ _ _ _ Dk Hw), (ot_antisym k k1 Dk Dk1). destruct (order_t k k1) eqn:E; cbn [CompOpp].
    + discriminate.
    + specialize (IHl k Dk Wl). destruct (split_l k l) as [[la lb]|]; [|exact IHl].
      rewrite flat_MEnd, !flat_MCons. destruct IHl as (<- & Hb & Ha).
      split; [rewrite <- app_assoc; reflexivity|]. split; [exact Hb|]. apply all_above_app. split; [exact Ha|exact Hp].
    + specialize (IHr k Dk Wr). destruct (split k r) as [[ra rb]|]; [|exact IHr].
      rewrite !flat_MCons. destruct IHr as (<- & Hb & Ha).
      split; [rewrite <- app_assoc; reflexivity|]. split; [|exact Ha].
      apply below_app. split; [exact Hp|]. constructor; [exact E|exact Hb].
  - intros k _ _. rewrite split_LNil. repeat split; constructor.
  - intros n IHn k Dk Hw. rewrite split_LNode, flat_LNode. specialize (IHn k Dk Hw).
    destruct (split k n) as [[na nb]|]; [rewrite !flat_mk_link|]; exact IHn.
Qed.

Lemma flat_chain d k (v : V) : flat (chain d k v) = [(k, v)].
Proof. induction d as [|d IH]; [reflexivity|exact IH]. Qed.

Definition ins_spec (k : sval) (v : V) (t : tree) (t' : tree) (added : bool) : Prop :=
  t' = t_insert k v t /\ added = (if t_get k t then false else true).

(* on the key's own level the child under the position is split around the new entry *)
Lemma split_entry (l : ml) k v : D k -> wf (flat_l l) ->
  match split_l k l with
  | Some (a, b) => ins_spec k v (flat_l l) (flat_l a ++ (k, v) :: flat_l b) true
  | None => t_get k (flat_l l) <> None
  end.
Proof.
  intros Dk Hw. pose proof (proj2 split_flat l k Dk Hw) as S. destruct (split_l k l) as [[a b]|]; [|exact S].
  destruct S as (<- & Hbel & Habv). unfold ins_spec.
  rewrite insert_app_lt, get_app_lt, (get_above k _ Habv) by assumption.
  split; [f_equal; symmetry; exact (insert_app_above k v [] _ Habv)|reflexivity].
Qed.

(* what Insert does, whichever way it ends: it panics only on a key that the tree holds and Get, walking
   the same path, does not find *)
Lemma ins_flat :
  (forall (n : mt) d k v, D k -> wf (flat n) ->
      match ins d k v n with
      | Some (n', added) => ins_spec k v (flat n) (flat n') added
      | None => get d k n = None /\ t_get k (flat n) <> None
      end) /\
  (forall (l : ml) d k v, D k -> wf (flat_l l) ->
      match ins_l d k v l with
      | Some (n', added) => ins_spec k v (flat_l l) (flat n') added
      | None => get_l d k l = None /\ t_get k (flat_l l) <> None
      end).
Proof.
  unfold ins_spec. apply mt_ml_ind.
  - intros l IHl d k v Dk Hw. rewrite ins_MEnd, get_MEnd, flat_MEnd. destruct d as [|d].
    + pose proof (split_entry l k v Dk Hw) as H. destruct (split_l k l) as [[a b]|]; [exact H|split; [reflexivity|exact H]].
    + specialize (IHl d k v Dk Hw). destruct (ins_l d k v l) as [[c ad]|]; exact IHl.
  - intros l IHl k1 v1 r IHr d k v Dk Hw. rewrite flat_MCons in Hw |- *. destruct (wf_MCons_inv _ _ _ _ Hw) as (Wl & Wr & _).
    rewrite ins_MCons, get_MCons, (insert_pivot k v _ _ _ _ Dk Hw), (get_pivot k _ _ _ _ Dk Hw).
    destruct (order_t k k1).
    + destruct d; [|split; [reflexivity|discriminate]]. split; reflexivity.
    + destruct d as [|d].
      * pose proof (split_entry l k v Dk Wl) as H. destruct (split_l k l) as [[a b]|]; [|split; [reflexivity|exact H]].
        rewrite !flat_MCons. destruct H as [<- Ha]. rewrite <- app_assoc. split; [reflexivity|exact Ha].
      * specialize (IHl d k v Dk Wl). destruct (ins_l d k v l) as [[c ad]|]; [|exact IHl].
        rewrite flat_MCons, flat_LNode. destruct IHl as [-> Ha]. split; [reflexivity|exact Ha].
    + specialize (IHr d k v Dk Wr). destruct (ins d k v r) as [[r' ad]|]; [|exact IHr].
      rewrite flat_MCons. destruct IHr as [-> Ha]. split; [reflexivity|exact Ha].
  - intros d k v _ _. rewrite ins_LNil, flat_chain. split; reflexivity.
  - intros n IHn d k v. rewrite ins_LNode, get_LNode, flat_LNode. apply IHn.
Qed.

(* what Delete does, whichever way it ends: it refuses only where Get, walking the same path, finds nothing *)
Lemma del_flat :
  (forall (n : mt) d k, D k -> wf (flat n) ->
      match del d k n with
      | Some n' => flat n' = t_delete k (flat n) /\ t_get k (flat n) <> None
      | None => get d k n = None
      end) /\
  (forall (l : ml) d k, D k -> wf (flat_l l) ->
      match del_l d k l with
      | Some n' => flat n' = t_delete k (flat_l l) /\ t_get k (flat_l l) <> None
      | None => get_l d k l = None
      end).
Proof.
  apply mt_ml_ind.
  - intros l IHl d k Dk Hw. rewrite del_MEnd, get_MEnd, flat_MEnd. destruct d as [|d]; [reflexivity|].
    specialize (IHl d k Dk Hw). destruct (del_l d k l) as [c|]; [rewrite flat_MEnd, flat_mk_link|]; exact IHl.
  - intros l IHl k1 v1 r IHr d k Dk Hw. rewrite flat_MCons in Hw |- *. destruct (wf_MCons_inv _ _ _ _ Hw) as (Wl & Wr & _).
    rewrite del_MCons, get_MCons, (get_pivot k _ _ _ _ Dk Hw), (delete_pivot k _ _ _ _ Dk Hw).
    destruct (order_t k k1).
    + destruct d; [|reflexivity]. rewrite (proj1 flat_merge), flat_MEnd. split; [reflexivity|discriminate].
    + destruct d as [|d]; [reflexivity|].
      specialize (IHl d k Dk Wl). destruct (del_l d k l) as [c|]; [|exact IHl].
      destruct IHl as [Hf Hg]. rewrite flat_MCons, flat_mk_link, Hf. split; [reflexivity|exact Hg].
    + specialize (IHr d k Dk Wr). destruct (del d k r) as [r'|]; [|exact IHr].
      destruct IHr as [Hf Hg]. rewrite flat_MCons, Hf. split; [reflexivity|exact Hg].
  - intros d k _ _. rewrite del_LNil, get_LNil. reflexivity.
  - intros n IHn d k. rewrite del_LNode, get_LNode, flat_LNode. apply IHn.
Qed.

Lemma get_sound :
  (forall (n : mt) d k v, D k -> wf (flat n) -> get d k n = Some v -> t_get k (flat n) = Some v) /\
  (forall (l : ml) d k v, D k -> wf (flat_l l) -> get_l d k l = Some v -> t_get k (flat_l l) = Some v).
Proof.
  apply mt_ml_ind.
  - intros l IHl d k v Dk Hw. rewrite get_MEnd, flat_MEnd. destruct d; [discriminate|]. exact (IHl d k v Dk Hw).
  - intros l IHl k1 v1 r IHr d k v Dk Hw. rewrite flat_MCons in Hw |- *. destruct (wf_MCons_inv _ _ _ _ Hw) as (Wl & Wr & _).
    rewrite get_MCons, (get_pivot k _ _ _ _ Dk Hw).
    destruct (order_t k k1);
      [destruct d; [exact (fun x => x)|discriminate]|destruct d; [discriminate|apply IHl; assumption]|apply IHr; assumption].
  - intros d k v _ _. rewrite get_LNil. discriminate.
  - intros n IHn d k v. rewrite get_LNode, flat_LNode. apply IHn.
Qed.

(* the handle: the grow and shrink loops act on the root node (node_of (m_root m)) by grow_node /
   shrink_node and leave the rest alone *)
Lemma mast_flat_root (m : mast V) : mast_flat m = flat (node_of (m_root m)).
Proof. symmetry. apply flat_node_of. Qed.

(* an absent root behaves as the empty node: Get and Delete act on node_of (m_root m), as Insert does by definition *)
Lemma mast_get_root (m : mast V) k :
  mast_get m k = get (m_height m - Nat.min (klayer (m_bf m) k) (m_height m)) k (node_of (m_root m)).
Proof.
  unfold mast_get. destruct (m_root m) as [|n]; [|reflexivity]. cbn [node_of]. rewrite get_MEnd.
  destruct (_ - _)%nat; reflexivity.
Qed.

(* the fuel of the shrink loop stays behind a quantifier: with the literal 300 in the statement every
   rewrite under it would rebuild a motive that holds the numeral *)
Lemma mast_delete_root (m : mast V) k : exists fuel,
  mast_delete m k =
  option_map (fun n' => shrink_loop fuel (with_root m (mk_link n') (m_size m - 1)))
             (del (m_height m - Nat.min (klayer (m_bf m) k) (m_height m)) k (node_of (m_root m))).
Proof.
  unfold mast_delete. generalize 300%nat. intros fuel. exists fuel.
  destruct (m_root m) as [|n]; [|reflexivity]. cbn [node_of]. rewrite del_MEnd. destruct (_ - _)%nat; reflexivity.
Qed.

(* whatever grow_node carries one level up, the grow loop carries to the final height *)
Lemma grow_loop_keeps (Q : nat -> mt -> Prop) bf sz fuel : forall m : mast V,
  (forall h n, Q h n -> Q (S h) (grow_node (fun k => Nat.ltb h (klayer bf k)) n)) ->
  m_bf m = bf -> m_size m = sz -> Q (m_height m) (node_of (m_root m)) ->
  Q (m_height (grow_loop fuel m)) (node_of (m_root (grow_loop fuel m))) /\
  m_bf (grow_loop fuel m) = bf /\ m_size (grow_loop fuel m) = sz.
Proof.
  intros m Hstep. revert m. induction fuel as [|f IH]; intros m Hb Hs H0; cbn [grow_loop]; [auto|].
  destruct (_ && _); [|auto]. apply IH; [exact Hb|exact Hs|]. cbn [m_height m_root node_of]. rewrite Hb.
  apply Hstep. exact H0.
Qed.

Lemma shrink_loop_keeps (Q : nat -> mt -> Prop) bf sz fuel : forall m : mast V,
  (forall h n, Q (S h) n -> Q h (shrink_node n)) ->
  m_bf m = bf -> m_size m = sz -> Q (m_height m) (node_of (m_root m)) ->
  Q (m_height (shrink_loop fuel m)) (node_of (m_root (shrink_loop fuel m))) /\
  m_bf (shrink_loop fuel m) = bf /\ m_size (shrink_loop fuel m) = sz.
Proof.
  intros m Hstep. revert m. induction fuel as [|f IH]; intros m Hb Hs H0; cbn [shrink_loop]; [auto|].
  destruct (_ && Nat.ltb 0 (m_height m)) eqn:C; [|auto]. apply andb_true_iff in C. destruct C as [_ C].
  apply IH; [exact Hb|exact Hs|]. cbn [m_height m_root].
  destruct (m_height m) as [|h]; [discriminate|]. cbn [pred]. apply Hstep in H0.
  destruct (m_root m) as [|n]; [exact H0|]. rewrite node_of_mk_link. exact H0.
Qed.

(* a successful Insert places the entry below the root at the depth of its capped layer and runs the grow
   loop: it keeps whatever ins and grow_node keep *)
Lemma mast_insert_keeps (Q : nat -> mt -> Prop) (m m' : mast V) k v :
  (forall h x, Q h x -> Q (S h) (grow_node (fun k => Nat.ltb h (klayer (m_bf m) k)) x)) ->
  mast_insert m k v = Some m' ->
  exists n ad, ins (m_height m - Nat.min (klayer (m_bf m) k) (m_height m)) k v (node_of (m_root m)) = Some (n, ad) /\
    (Q (m_height m) n ->
     Q (m_height m') (node_of (m_root m')) /\ m_bf m' = m_bf m /\
     m_size m' = (if ad then m_size m + 1 else m_size m)).
Proof.
  (* the literal fuel becomes a variable before anything is simplified: cbn would unfold grow_loop 70 *)
  intros Hstep. unfold mast_insert, finish_insert. generalize 70%nat. intros fuel.
  destruct (ins (m_height m - Nat.min (klayer (m_bf m) k) (m_height m)) k v (node_of (m_root m))) as [[n ad]|];
    [|discriminate]. cbn [option_map fst snd]. intros H. injection H as <-. exists n, ad. split; [reflexivity|]. intros H0.
  destruct ad; [|auto].
  destruct (grow_loop_keeps Q (m_bf m) (m_size m) fuel (with_root m (LNode n) (m_size m)) Hstep eq_refl eq_refl H0)
    as (HQ & Hb & Hs).
  cbn [with_root m_height m_root m_bf m_size]. rewrite Hs. auto.
Qed.

Lemma mast_delete_keeps (Q : nat -> mt -> Prop) (m m' : mast V) k :
  (forall h x, Q (S h) x -> Q h (shrink_node x)) ->
  mast_delete m k = Some m' ->
  exists n', del (m_height m - Nat.min (klayer (m_bf m) k) (m_height m)) k (node_of (m_root m)) = Some n' /\
    (Q (m_height m) n' ->
     Q (m_height m') (node_of (m_root m')) /\ m_bf m' = m_bf m /\ m_size m' = m_size m - 1).
Proof.
  intros Hstep. destruct (mast_delete_root m k) as [fuel ->].
  destruct (del (m_height m - Nat.min (klayer (m_bf m) k) (m_height m)) k (node_of (m_root m))) as [n'|]; [|discriminate].
  cbn [option_map]. intros H. injection H as <-. exists n'. split; [reflexivity|]. intros H0.
  apply shrink_loop_keeps; [exact Hstep|reflexivity|reflexivity|].
  cbn [with_root m_height m_root]. rewrite node_of_mk_link. exact H0.
Qed.

Theorem mast_insert_refines (m m' : mast V) k v : D k -> wf (mast_flat m) ->
  mast_insert m k v = Some m' ->
  mast_flat m' = t_insert k v (mast_flat m) /\ wf (mast_flat m') /\
  m_size m' = (if t_get k (mast_flat m) then m_size m else m_size m + 1).
Proof.
  intros Hk Hw Hi. rewrite (mast_flat_root m) in Hw |- *.
  destruct (mast_insert_keeps (fun _ x => flat x = t_insert k v (flat (node_of (m_root m)))) m m' k v)
    as (n & ad & E & H); [intros h x Hx; rewrite flat_grow; exact Hx|exact Hi|].
  epose proof (proj1 ins_flat _ _ k v Hk Hw) as S. rewrite E in S. destruct S as [Hf Ha].
  destruct (H Hf) as (HF & _ & HS). rewrite mast_flat_root, HF, HS.
  split; [reflexivity|]. split; [apply insert_wf; assumption|].
  rewrite Ha. destruct (t_get k (flat (node_of (m_root m)))); reflexivity.
Qed.

Theorem mast_delete_refines (m m' : mast V) k : D k -> wf (mast_flat m) ->
  mast_delete m k = Some m' ->
  mast_flat m' = t_delete k (mast_flat m) /\ wf (mast_flat m') /\
  t_get k (mast_flat m) <> None /\ m_size m' = m_size m - 1.
Proof.
  intros Hk Hw Hd. rewrite (mast_flat_root m) in Hw |- *.
  destruct (mast_delete_keeps (fun _ x => flat x = t_delete k (flat (node_of (m_root m)))) m m' k)
    as (n' & E & H); [intros h x Hx; rewrite flat_shrink; exact Hx|exact Hd|].
  epose proof (proj1 del_flat _ _ k Hk Hw) as S. rewrite E in S. destruct S as [Hf Hg].
  destruct (H Hf) as (HF & _ & HS). rewrite mast_flat_root, HF, HS.
  repeat split; [apply delete_wf; assumption|exact Hg].
Qed.

Lemma mast_delete_none (m : mast V) k : D k -> wf (mast_flat m) -> mast_delete m k = None -> mast_get m k = None.
Proof.
  intros Dk Hw. destruct (mast_delete_root m k) as [fuel ->]. rewrite mast_get_root. rewrite mast_flat_root in Hw.
  generalize (proj1 del_flat _ (m_height m - Nat.min (klayer (m_bf m) k) (m_height m))%nat k Dk Hw).
  destruct (del _ k _); [discriminate|exact (fun H _ => H)].
Qed.

Theorem mast_get_sound (m : mast V) k v : D k -> wf (mast_flat m) ->
  mast_get m k = Some v -> t_get k (mast_flat m) = Some v.
Proof. rewrite mast_get_root, mast_flat_root. apply (proj1 get_sound). Qed.

Theorem mast_load_flat (root : Mast.ml V) h sz bf : mast_flat (mast_load root h sz bf) = flat_l root.
Proof. unfold mast_flat, mast_load. cbn [m_root]. destruct root; reflexivity. Qed.

End MastProofs.
