(* ExecProofs.v — semantics of programs over storage requests, and how to reason about them.
   [exec] is a fuel-free big-step semantics, [run] the executable interpreter.  Both follow a
   chain of answered requests ([reaches]); an invariant of one answered request therefore holds
   wherever a run stops ([reaches_inv]), and a weakest precondition computed along the program
   ([wp]) is sound for every plan and crash point.  Protocol theorems are stated on [exec], or on
   [run] where running out of fuel is to be covered too. *)
From S3db Require Import Base Store.
Import ListNotations.
Open Scope Z_scope.

Section Exec.
Context {V : Type}.
Notation prog := (Store.prog V).
Notation trace := (list (req V * bool)).
Variable oeq : obj V -> obj V -> bool.
Variable plan : list fault.
Variable crash : option Z.

Definition crashes_now (r : req V) (muts : Z) : bool :=
  is_mut r && (match crash with Some c => c <=? muts | None => false end).

Definition is_hash (r : req V) : bool := match r with RHash _ => true | _ => false end.

(* [exec muts b p tr b' r tr' muts']: from [muts] mutations applied, bucket [b] and trace [tr] (newest
   first), [p] ends with result [r] in bucket [b'], trace [tr'], [muts'] mutations applied *)
Inductive exec (A : Type) : Z -> bucket V -> prog A -> list (req V * bool) ->
                     bucket V -> result A -> list (req V * bool) -> Z -> Prop :=
| ex_ret muts b (a : A) tr : exec A muts b (Ret a) tr b (Done a) tr muts
| ex_fail muts b e tr : exec A muts b (Fail e : prog A) tr b (Failed e) tr muts
| ex_hash muts b o (k : resp V -> prog A) tr b1 rs b' r tr' muts' :
    exec_req oeq (RHash o) b = (b1, rs) ->
    exec A muts b1 (k rs) tr b' r tr' muts' ->
    exec A muts b (Do (RHash o) k) tr b' r tr' muts'
| ex_crash muts b rq (k : resp V -> prog A) tr :
    is_hash rq = false -> crashes_now rq muts = true ->
    exec A muts b (Do rq k) tr b Crashed tr muts
| ex_ok muts b rq (k : resp V -> prog A) tr b1 rs b' r tr' muts' :
    is_hash rq = false -> crashes_now rq muts = false ->
    plan_outcome plan tr rq = OOk ->
    exec_req oeq rq b = (b1, rs) ->
    exec A (if is_mut rq then muts + 1 else muts) b1 (k rs) ((rq, true) :: tr) b' r tr' muts' ->
    exec A muts b (Do rq k) tr b' r tr' muts'
| ex_err muts b rq (k : resp V -> prog A) tr b' r tr' muts' :
    is_hash rq = false -> crashes_now rq muts = false ->
    plan_outcome plan tr rq = OErr ->
    exec A muts b (k RErr) ((rq, false) :: tr) b' r tr' muts' ->
    exec A muts b (Do rq k) tr b' r tr' muts'
| ex_gone muts b rq (k : resp V -> prog A) tr b' r tr' muts' :
    is_hash rq = false -> crashes_now rq muts = false ->
    plan_outcome plan tr rq = OGone ->
    exec A muts b (k RNoSuchKey) ((rq, false) :: tr) b' r tr' muts' ->
    exec A muts b (Do rq k) tr b' r tr' muts'.
Arguments exec {A}.

(* request [rq], issued on bucket [b] after trace [tr], is answered [rs]; [ok]: it was executed
   (a hash request always is), otherwise the plan answered with a fault *)
Definition answered (b : bucket V) (tr : trace) (rq : req V) (ok : bool) (rs : resp V) : Prop :=
  if ok then rs = snd (exec_req oeq rq b) /\ (is_hash rq = false -> plan_outcome plan tr rq = OOk)
  else is_hash rq = false /\
       (plan_outcome plan tr rq = OErr /\ rs = RErr \/ plan_outcome plan tr rq = OGone /\ rs = RNoSuchKey).

Notation muts_after m rq ok := (if ok && is_mut rq then m + 1 else m)%Z.
Notation bucket_after b rq ok := (if ok then fst (exec_req oeq rq b) else b).
Notation trace_after tr rq ok := (if is_hash rq then tr else (rq, ok) :: tr)%list.

Lemma exec_inv {A m b} {p : prog A} {tr b' r tr' m'} :
  exec m b p tr b' r tr' m' ->
  match p with
  | Ret a => b' = b /\ r = Done a /\ tr' = tr /\ m' = m
  | Fail e => b' = b /\ r = Failed e /\ tr' = tr /\ m' = m
  | Do rq k =>
      (is_hash rq = false /\ crashes_now rq m = true /\ b' = b /\ r = Crashed /\ tr' = tr /\ m' = m) \/
      (exists ok rs, crashes_now rq m = false /\ answered b tr rq ok rs /\
         exec (muts_after m rq ok) (bucket_after b rq ok) (k rs) (trace_after tr rq ok) b' r tr' m')
  end.
Proof.
  intros X. destruct X as [| |? ? o ? ? b1 rs ? ? ? ? E Y|? ? ? ? ? Hh Hc
                          |? ? ? ? ? b1 rs ? ? ? ? Hh Hc Hp E Y|? ? ? ? ? ? ? ? ? Hh Hc Hp Y
                          |? ? ? ? ? ? ? ? ? Hh Hc Hp Y]; auto.
  - right. exists true, rs. unfold answered. rewrite E. split; [reflexivity|]. split; [split; [reflexivity|discriminate]|exact Y].
  - left. auto 6.
  - right. exists true, rs. unfold answered. rewrite E, Hh. split; [exact Hc|]. split; [split; auto|exact Y].
  - right. exists false, RErr. rewrite Hh. split; [exact Hc|]. split; [split; auto|exact Y].
  - right. exists false, RNoSuchKey. rewrite Hh. split; [exact Hc|]. split; [split; auto|exact Y].
Qed.

(* the four rules for a request that is answered, as one *)
Lemma exec_answered {A m b rq} {k : resp V -> prog A} {tr ok rs b' r tr' m'} :
  crashes_now rq m = false -> answered b tr rq ok rs ->
  exec (muts_after m rq ok) (bucket_after b rq ok) (k rs) (trace_after tr rq ok) b' r tr' m' ->
  exec m b (Do rq k) tr b' r tr' m'.
Proof.
  intros Hc Ha Y. destruct (is_hash rq) eqn:Hh.
  - destruct rq; try discriminate. destruct ok; [destruct Ha as [-> _]|destruct Ha; discriminate].
    eapply ex_hash; [apply surjective_pairing|exact Y].
  - destruct ok; [destruct Ha as [-> Hp]|destruct Ha as [_ [[Hp ->]|[Hp ->]]]].
    + eapply ex_ok; auto; [apply surjective_pairing|exact Y].
    + apply ex_err; auto.
    + apply ex_gone; auto.
Qed.

Inductive reaches {A} : Z -> bucket V -> prog A -> trace -> Z -> bucket V -> prog A -> trace -> Prop :=
| rc_here m b p tr : reaches m b p tr m b p tr
| rc_step m b rq k tr ok rs m' b' p' tr' :
    crashes_now rq m = false ->
    answered b tr rq ok rs ->
    reaches (muts_after m rq ok) (bucket_after b rq ok) (k rs) (trace_after tr rq ok) m' b' p' tr' ->
    reaches m b (Do rq k) tr m' b' p' tr'.

(* the program at which a run that reports [r] has stopped *)
Definition stops {A} (m : Z) (p : prog A) (r : result A) : Prop :=
  match r with
  | Done a => p = Ret a
  | Failed e => p = Fail e
  | Crashed => exists rq k, p = Do rq k /\ is_hash rq = false /\ crashes_now rq m = true
  | OutOfFuel => True
  end.

(* what every answered request preserves holds wherever a run stops *)
Lemma reaches_inv {A} (I : bucket V -> trace -> prog A -> Prop) :
  (forall b tr rq k ok rs, answered b tr rq ok rs -> I b tr (Do rq k) ->
     I (bucket_after b rq ok) (trace_after tr rq ok) (k rs)) ->
  forall m b p tr m' b' p' tr', reaches m b p tr m' b' p' tr' -> I b tr p -> I b' tr' p'.
Proof. intros Hs. induction 1; eauto. Qed.

Lemma exec_reaches {A m b} {p : prog A} {tr b' r tr' m'} :
  exec m b p tr b' r tr' m' ->
  r <> OutOfFuel /\ exists p', reaches m b p tr m' b' p' tr' /\ stops m' p' r.
Proof.
  revert m b tr. induction p as [a|e|rq k IH]; intros m b tr X.
  1,2: destruct (exec_inv X) as (-> & -> & -> & ->); (split; [discriminate|]); eexists; (split; [constructor|reflexivity]).
  destruct (exec_inv X) as [(Hh & Hc & -> & -> & -> & ->)|(ok & rs & Hc & Ha & Y)].
  - split; [discriminate|]. eexists. split; [constructor|]. exists rq, k. auto.
  - destruct (IH _ _ _ _ Y) as (Hr & p' & R & St). split; [exact Hr|].
    exists p'. split; [econstructor; eassumption|exact St].
Qed.

Lemma reaches_exec {A m b} {p : prog A} {tr m' b' p' tr' r} :
  reaches m b p tr m' b' p' tr' -> stops m' p' r -> r <> OutOfFuel -> exec m b p tr b' r tr' m'.
Proof.
  intros R St Hr. induction R as [m b p tr|m b rq k tr ok rs m' b' p' tr' Hc Ha R IH].
  - destruct r as [a|e| |]; cbn in St; [subst; constructor|subst; constructor| |contradiction].
    destruct St as (rq & k & -> & Hh & C). apply ex_crash; assumption.
  - exact (exec_answered Hc Ha (IH St)).
Qed.

Lemma run_do {A} f i muts b rq (k : resp V -> prog A) tr :
  run oeq (S f) plan crash i muts b (Do rq k) tr =
  let b1 := fst (exec_req oeq rq b) in let rs := snd (exec_req oeq rq b) in
  if is_hash rq then run oeq f plan crash i muts b1 (k rs) tr
  else if crashes_now rq muts then (b, Crashed, tr)
  else match plan_outcome plan tr rq with
       | OOk => run oeq f plan crash (i + 1) (if is_mut rq then muts + 1 else muts) b1 (k rs) ((rq, true) :: tr)
       | OErr => run oeq f plan crash (i + 1) muts b (k RErr) ((rq, false) :: tr)
       | OGone => run oeq f plan crash (i + 1) muts b (k RNoSuchKey) ((rq, false) :: tr)
       end.
Proof. destruct rq; [reflexivity..|]. cbn [run exec_req is_hash]. destruct (intern oeq o b). reflexivity. Qed.

(* also when the fuel runs out: the run then stopped somewhere along the chain *)
Lemma run_reaches {A fuel} : forall {i muts b} {p : prog A} {tr b' r tr'},
  run oeq fuel plan crash i muts b p tr = (b', r, tr') ->
  exists muts' p', reaches muts b p tr muts' b' p' tr' /\ stops muts' p' r.
Proof.
  induction fuel as [|f IH]; intros i muts b p tr b' r tr' H.
  - injection H as <- <- <-. eexists _, _. split; [constructor|exact I].
  - destruct p as [a|e|rq k]; try (injection H as <- <- <-; eexists _, _; split; [constructor|reflexivity]).
    rewrite run_do in H. cbv zeta in H.
    assert (Go : forall ok rs i1, answered b tr rq ok rs ->
              crashes_now rq muts = false ->
              run oeq f plan crash i1 (muts_after muts rq ok) (bucket_after b rq ok) (k rs)
                  (trace_after tr rq ok) = (b', r, tr') ->
              exists muts' p', reaches muts b (Do rq k) tr muts' b' p' tr' /\ stops muts' p' r).
    { intros ok rs i1 Ha Hc E. destruct (IH _ _ _ _ _ _ _ _ E) as (m' & p' & R & St).
      exists m', p'. split; [econstructor; eassumption|exact St]. }
    destruct (is_hash rq) eqn:Hh.
    + destruct rq; try discriminate.
      eapply (Go true); [| |exact H]; [split; [reflexivity|discriminate]|reflexivity].
    + destruct (crashes_now rq muts) eqn:C.
      * injection H as <- <- <-. eexists _, _. split; [constructor|]. exists rq, k. auto.
      * destruct (plan_outcome plan tr rq) eqn:P.
        -- eapply (Go true); [| |exact H]; [split; auto|auto].
        -- eapply (Go false); [| |exact H]; [split; auto|auto].
        -- eapply (Go false); [| |exact H]; [split; auto|auto].
Qed.

Theorem run_exec {A} fuel : forall i muts b (p : prog A) tr b' r tr',
  run oeq fuel plan crash i muts b p tr = (b', r, tr') ->
  r <> OutOfFuel ->
  exists muts', exec muts b p tr b' r tr' muts'.
Proof.
  intros i muts b p tr b' r tr' H Hr. destruct (run_reaches H) as (m' & p' & R & St).
  exists m'. exact (reaches_exec R St Hr).
Qed.

(* what holds of every execution holds of every run that does not run out of fuel *)
Lemma run_post {A muts b} {p : prog A} {tr} {Q : bucket V -> result A -> trace -> Prop} :
  (forall b' r tr' muts', exec muts b p tr b' r tr' muts' -> Q b' r tr') ->
  forall fuel i b' r tr', run oeq fuel plan crash i muts b p tr = (b', r, tr') -> r <> OutOfFuel -> Q b' r tr'.
Proof. intros HQ fuel i b' r tr' H Hr. destruct (run_exec _ _ _ _ _ _ _ _ _ H Hr) as (m' & X). exact (HQ _ _ _ _ X). Qed.

Theorem exec_bind_inv {A B} (p : prog A) (f : A -> prog B) :
  forall muts b tr b' r tr' muts',
  exec muts b (bind p f) tr b' r tr' muts' ->
  (exists a b1 tr1 m1, exec muts b p tr b1 (Done a) tr1 m1 /\ exec m1 b1 (f a) tr1 b' r tr' muts') \/
  (exists e, r = Failed e /\ exec muts b p tr b' (Failed e) tr' muts') \/
  (r = Crashed /\ exec muts b p tr b' Crashed tr' muts').
Proof.
  induction p as [a|e|rq k IH]; intros muts b tr b' r tr' muts' H; cbn [bind] in H.
  - left. exists a, b, tr, muts. split; [constructor|exact H].
  - destruct (exec_inv H) as (-> & -> & -> & ->). right; left. exists e. split; [reflexivity|constructor].
  - destruct (exec_inv H) as [(Hh & Hc & -> & -> & -> & ->)|(ok & rs & Hc & Ha & X)].
    + right; right. split; [reflexivity|]. apply ex_crash; assumption.
    + (* whatever [p] does after this request, it does it after [Do rq k] as well *)
      destruct (IH _ _ _ _ _ _ _ _ X) as [(a & b2 & tr2 & m2 & Hp & Hq)|[(e & -> & Hp)|(-> & Hp)]].
      * left. exists a, b2, tr2, m2. split; [exact (exec_answered Hc Ha Hp)|exact Hq].
      * right; left. exists e. split; [reflexivity|exact (exec_answered Hc Ha Hp)].
      * right; right. split; [reflexivity|exact (exec_answered Hc Ha Hp)].
Qed.

Theorem exec_trace_extends {A} muts b (p : prog A) tr b' r tr' muts' :
  exec muts b p tr b' r tr' muts' -> exists ext, tr' = ext ++ tr.
Proof.
  intros X. destruct (exec_reaches X) as (_ & p' & R & _).
  apply (reaches_inv (fun _ t _ => exists ext, t = ext ++ tr)) in R; [exact R| |exists []; reflexivity].
  intros _ t rq _ ok _ _ [ext ->]. destruct (is_hash rq); [exists ext|exists ((rq, ok) :: ext)]; reflexivity.
Qed.

Definition post (A : Type) := bucket V -> result A -> trace -> Prop.

(* [Q], for a run that continues one whose requests were [e1] *)
Definition after {A} (e1 : trace) (Q : post A) : post A := fun b r e => Q b r (e ++ e1).

Section WP.
Variable F : outcome -> Prop.

(* the answers of the plans whose fault answers are among [F] *)
Definition may_answer (b : bucket V) (rq : req V) (ok : bool) (rs : resp V) : Prop :=
  if ok then rs = snd (exec_req oeq rq b)
  else is_hash rq = false /\ (F OErr /\ rs = RErr \/ F OGone /\ rs = RNoSuchKey).

(* [wp p Q b]: under every plan whose fault answers are among [F] and every crash point, a run
   of [p] from bucket [b] ends in a bucket and with a result that, together with the requests
   the run has issued (newest first, like every trace), satisfy [Q].  At a request: the process
   may die first (before a mutation), or the request is answered *)
Fixpoint wp {A} (p : prog A) (Q : post A) (b : bucket V) : Prop :=
  match p with
  | Ret a => Q b (Done a) []
  | Fail e => Q b (Failed e) []
  | Do rq k =>
      (is_mut rq = true -> Q b Crashed []) /\
      forall ok rs, may_answer b rq ok rs -> wp (k rs) (after (trace_after [] rq ok) Q) (bucket_after b rq ok)
  end.

Lemma wp_mono {A} (p : prog A) : forall (Q Q' : post A),
  (forall b r e, Q b r e -> Q' b r e) -> forall b, wp p Q b -> wp p Q' b.
Proof.
  induction p as [a|e|rq k IH]; intros Q Q' HQ b; cbn [wp]; auto.
  intros [Hc Hs]. split; [auto|]. intros ok rs Ha. eapply IH; [|exact (Hs ok rs Ha)].
  intros b1 r e. apply HQ.
Qed.

(* what [p] has to establish for [bind p f] to establish [Q] *)
Definition bind_post {A B} (f : A -> prog B) (Q : post B) : post A :=
  fun b1 r e1 => match r with
                 | Done a => wp (f a) (after e1 Q) b1
                 | Failed e => Q b1 (Failed e) e1
                 | Crashed => Q b1 Crashed e1
                 | OutOfFuel => True
                 end.

Lemma wp_bind {A B} (p : prog A) (f : A -> prog B) : forall (Q : post B) b,
  wp p (bind_post f Q) b -> wp (bind p f) Q b.
Proof.
  induction p as [a|e|rq k IH]; intros Q b; cbn [wp bind]; auto.
  - apply wp_mono. intros b1 r e. unfold after. rewrite app_nil_r. auto.
  - intros [Hc Hs]. split; [exact Hc|]. intros ok rs Ha. apply IH. eapply wp_mono; [|exact (Hs ok rs Ha)].
    intros b2 [a|e| |] e1; cbn; auto. apply wp_mono. intros b3 r e. unfold after. rewrite app_assoc. auto.
Qed.

(* a hash request is answered with a name *)
Lemma wp_hash {A} o (k : resp V -> prog A) (Q : post A) b :
  (forall n b1, wp (k (RName n)) Q b1) -> wp (Do (RHash o) k) Q b.
Proof.
  intros H. split; [discriminate|]. intros [|] rs Ha; [|destruct Ha; discriminate].
  cbn in Ha |- *. destruct (intern oeq o b). subst rs. eapply wp_mono; [|apply H].
  intros b1 r e. unfold after. rewrite app_nil_r. auto.
Qed.

(* any other request: the process dies first (before a mutation), the request is executed, or it is
   answered with a fault; s3db goes on in the same way after either fault answer to a PUT or DELETE,
   so that continuation is walked once *)
Lemma wp_do {A} rq (k : resp V -> prog A) (Q : post A) b :
  is_hash rq = false ->
  (is_mut rq = true -> Q b Crashed []) ->
  wp (k (snd (exec_req oeq rq b))) (after [(rq, true)] Q) (fst (exec_req oeq rq b)) ->
  k RNoSuchKey = k RErr -> wp (k RErr) (after [(rq, false)] Q) b ->
  wp (Do rq k) Q b.
Proof.
  intros Hh Hc Hok Hk Hf. split; [exact Hc|]. intros [|] rs Ha; unfold may_answer in Ha; rewrite Hh; [subst rs; exact Hok|].
  destruct Ha as [_ [[_ ->]|[_ ->]]]; [|rewrite Hk]; exact Hf.
Qed.

(* Programs that only read.  The bucket stays [b]; the run returns a value satisfying [P] or,
   if [fl] (which has to hold when the plan may answer with an error), fails. *)
Definition reads {A} (fl : Prop) (b : bucket V) (P : A -> Prop) : post A :=
  fun b' r _ => b' = b /\ ((exists a, r = Done a /\ P a) \/ (fl /\ exists e, r = Failed e)).

Lemma reads_ret {A} fl b (a : A) (P : A -> Prop) : P a -> wp (Ret a) (reads fl b P) b.
Proof. intros H. split; [reflexivity|]. left. eauto. Qed.

Lemma reads_fail {A} (fl : Prop) b e (P : A -> Prop) : fl -> wp (Fail e) (reads fl b P) b.
Proof. intros H. split; [reflexivity|]. right. eauto. Qed.

Lemma reads_bind {A B} fl b (p : prog A) (f : A -> prog B) (P : A -> Prop) (Q : B -> Prop) :
  wp p (reads fl b P) b -> (forall a, P a -> wp (f a) (reads fl b Q) b) -> wp (bind p f) (reads fl b Q) b.
Proof.
  intros Hp Hf. apply wp_bind. eapply wp_mono; [|exact Hp].
  intros b1 r e1 (-> & [(a & -> & Ha)|(He & e & ->)]); [exact (Hf a Ha)|].
  split; [reflexivity|]. right. eauto.
Qed.

Lemma reads_conseq {A} fl b (p : prog A) (P P' : A -> Prop) :
  (forall a, P a -> P' a) -> wp p (reads fl b P) b -> wp p (reads fl b P') b.
Proof.
  intros H. apply wp_mono. intros b1 r e1 (-> & [(a & -> & Ha)|He]); (split; [reflexivity|]);
    [left; eauto|right; exact He].
Qed.

(* a GET or LIST is answered from the bucket or, if the plan may do so, with an error; a plan
   that may report "no such object" for an object that is there is excluded *)
Lemma reads_req {A} (fl : Prop) b rq (k : resp V -> prog A) (Q : A -> Prop) :
  is_hash rq = false -> is_mut rq = false -> ~ F OGone ->
  wp (k (snd (exec_req oeq rq b))) (reads fl b Q) b ->
  (F OErr -> wp (k RErr) (reads fl b Q) b) ->
  wp (Do rq k) (reads fl b Q) b.
Proof.
  intros Hh Hm NG H1 H2. split; [rewrite Hm; discriminate|].
  assert (E : fst (exec_req oeq rq b) = b) by (destruct rq; try discriminate; reflexivity).
  intros [|] rs Ha; unfold may_answer in Ha; [subst rs; rewrite E; exact H1|]. destruct Ha as [_ [[G ->]|[G _]]]; [exact (H2 G)|destruct (NG G)].
Qed.

Hypothesis plan_F : forall tr (rq : req V), F (plan_outcome plan tr rq).

(* an answered request takes the weakest precondition of [Do rq k] to that of what follows *)
Lemma wp_answered {A b tr rq} {k : resp V -> prog A} {ok rs} {Q : post A} :
  answered b tr rq ok rs -> wp (Do rq k) Q b ->
  wp (k rs) (after (trace_after [] rq ok) Q) (bucket_after b rq ok).
Proof.
  intros Ha [_ Hs]. apply Hs. destruct ok; [exact (proj1 Ha)|]. destruct Ha as [Hh Hrs]. split; [exact Hh|].
  destruct Hrs as [[Hp ->]|[Hp ->]]; [left|right]; (split; [rewrite <- Hp; apply plan_F|reflexivity]).
Qed.

(* so "the rest of the run, continued from the requests [e] issued so far, satisfies [Q]" is an
   invariant of one answered request *)
Theorem wp_sound {A} {p : prog A} {Q : post A} {muts b tr b' r tr' muts'} :
  exec muts b p tr b' r tr' muts' -> wp p Q b -> exists ext, tr' = ext ++ tr /\ Q b' r ext.
Proof.
  intros X W. destruct (exec_reaches X) as (Hr & p' & R & St).
  apply (reaches_inv (fun b1 tr1 p1 => exists e, tr1 = e ++ tr /\ wp p1 (after e Q) b1)) in R.
  - destruct R as (e & -> & W'). unfold after in W'.
    exists e. split; [reflexivity|]. destruct r as [a|e0| |]; cbn in St.
    + subst p'. exact W'.
    + subst p'. exact W'.
    + destruct St as (rq & k & -> & Hh & C). apply W'. unfold crashes_now in C. apply andb_prop in C. apply C.
    + contradiction.
  - intros b1 tr1 rq k ok rs Ha (e & -> & W1). apply (wp_answered Ha) in W1.
    exists (trace_after [] rq ok ++ e). split; [destruct (is_hash rq); reflexivity|].
    eapply wp_mono; [|exact W1]. intros b2 r0 e1. unfold after. rewrite app_assoc. auto.
  - exists []. split; [reflexivity|]. eapply wp_mono; [|exact W]. intros b1 r0 e. unfold after. rewrite app_nil_r. auto.
Qed.
End WP.

End Exec.
