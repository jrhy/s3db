(* CommitProofs.v — what kv.Commit does to the bucket, for EVERY fault plan and EVERY crash
   point (the big-step semantics [exec] of ExecProofs.v quantifies over both).
   Commit is split into its two halves (flush_tree: MakeRoot's node store; publish: the version
   object, then the retirement of the merged versions) and what it writes when nothing interrupts
   it is one explicit list, its SCRIPT:
       [PUT node]? ; PUT current/new ; (PUT merged/p ; DELETE current/p)*
   [commit_wp]: the successful mutations of a commit, cut anywhere, are a prefix of the script
   (so the node is stored before the version that links to it, the version object is written
   with one PUT, a parent is retired only after its successor exists and only after its copy
   under merged/ exists), a commit never ends in [Failed], a commit that is not needed issues no
   request at all, and any other acknowledged commit (COk (Some n)) has PUT current/n among its
   successful mutations.
   [exec_replay]: the bucket after any run is the bucket before with the successful mutations
   applied.  Together [commit_cut]: the bucket a commit leaves is either [unpublished] (current/
   and merged/ as they were) or [published] (the new version under current/ with its root node
   stored, merged versions possibly retired); in both cases no node name and no version name
   that was present is absent afterwards.  The statements of C04 / C14 / C16 ([commit_protocol],
   [commit_bucket]) follow. *)
From S3db Require Import Base Tree Store KvProto.
From S3db.proofs Require Import ProtoProofs ExecProofs.
Import ListNotations.
Open Scope Z_scope.

Section Commit.
Context {V : Type}.
Variable oeq : obj V -> obj V -> bool.
Variable plan : list fault.
Variable crash : option Z.

Notation exec := (@exec V oeq plan crash _).
Notation treq := (req V * bool)%type.

(* successful mutations of a trace segment (newest first), in the order issued *)
Definition ok_mut (e : treq) : bool := snd e && is_mut (fst e).
Definition succ_muts (ext : list treq) : list (req V) := rev (map fst (filter ok_mut ext)).

Lemma succ_muts_app e1 e2 : succ_muts (e2 ++ e1) = succ_muts e1 ++ succ_muts e2.
Proof. unfold succ_muts. rewrite filter_app, map_app, rev_app_distr. reflexivity. Qed.

Lemma succ_muts_cons e ext : succ_muts (e :: ext) = succ_muts ext ++ (if ok_mut e then [fst e] else []).
Proof. unfold succ_muts. cbn [filter]. destruct (ok_mut e); cbn [map rev]; [reflexivity|symmetry; apply app_nil_r]. Qed.

Lemma succ_muts_nil : succ_muts [] = [].
Proof. reflexivity. Qed.

Definition replay (l : list (req V)) (b : bucket V) : bucket V :=
  fold_left (fun b r => fst (exec_req oeq r b)) l b.

Lemma sel_same p (a b : bucket V) : same_stores a b -> sel p b = sel p a.
Proof. intros (H1 & H2 & H3). destruct p; cbn; assumption. Qed.

(* a mutation replaces one store by a function of that store *)
Lemma mut_same_stores r (a b : bucket V) :
  is_mut r = true -> same_stores a b ->
  same_stores (fst (exec_req oeq r a)) (fst (exec_req oeq r b)).
Proof.
  intros Hm S. assert (U : forall p m, same_stores (upd p m a) (upd p m b)).
  { intros p m. destruct p; repeat split; apply S. }
  destruct r as [pf|pf nn|pf nn o|pf nn|o]; try discriminate; cbn [exec_req fst]; rewrite (sel_same pf a b S); apply U.
Qed.

Lemma replay_cons r l b : replay (r :: l) b = replay l (fst (exec_req oeq r b)).
Proof. reflexivity. Qed.

Lemma replay_app l1 l2 b : replay (l1 ++ l2) b = replay l2 (replay l1 b).
Proof. unfold replay. apply fold_left_app. Qed.

(* the final bucket is the initial one with the successful mutations applied, whatever the
   plan and the crash point *)
Theorem exec_replay {A} muts b (p : Store.prog V A) tr b' r tr' muts' :
  exec muts b p tr b' r tr' muts' ->
  exists ext, tr' = ext ++ tr /\ same_stores (replay (succ_muts ext) b) b'.
Proof.
  intros X. destruct (exec_reaches _ _ _ X) as (_ & p' & R & _).
  apply (reaches_inv oeq plan crash
           (fun b1 tr1 _ => exists ext, tr1 = ext ++ tr /\ same_stores (replay (succ_muts ext) b) b1)) in R;
    [exact R| |exists []; split; [reflexivity|apply same_stores_refl]].
  clear. intros b1 tr1 rq _ ok _ _ (ext & -> & S).
  assert (Same : is_mut rq = false -> same_stores (replay (succ_muts ext) b) (if ok then fst (exec_req oeq rq b1) else b1)).
  { intros M. destruct ok; [|exact S]. eapply same_stores_trans; [exact S|apply exec_nonmut_same; exact M]. }
  destruct (is_hash rq) eqn:Hh; [exists ext; split; [reflexivity|]; apply Same; destruct rq; try discriminate; reflexivity|].
  exists ((rq, ok) :: ext). split; [reflexivity|]. rewrite succ_muts_cons, replay_app. unfold ok_mut. cbn [fst snd].
  destruct ok; cbn [andb]; [|exact S]. destruct (is_mut rq) eqn:M; [|apply Same; reflexivity].
  apply mut_same_stores; assumption.
Qed.

(* the version object a commit of [h] writes when its tree is stored under [link] *)
Definition version_of (h : handle (V := V)) (link : option name) : vobj :=
  {| v_link := link; v_size := t_size (h_tree h); v_bf := h_bf h;
     v_created := h_created h; v_parents := h_msources h; v_mode := h_mode h |}.

(* MakeRoot flushes the tree when it is dirty and not empty *)
Definition stores_tree (h : handle (V := V)) : bool := h_dirty h && negb (Nat.eqb (length (h_tree h)) 0).

Definition flush_tree (h : handle (V := V)) : Store.prog V (option name * bool) :=
  if stores_tree h
  then Do (RHash (ONode (h_tree h))) (fun r =>
         match r with
         | RName n => Do (RPut PNode n (ONode (h_tree h))) (fun r2 =>
                        match r2 with ROk => Ret (Some n, true) | _ => Ret (Some n, false) end)
         | _ => Fail E_BADOBJ
         end)
  else Ret (if h_dirty h then None else h_link h, true).

(* the merged versions to retire, in the order the implementation visits them *)
Definition parents_of (order : list name) (h : handle (V := V)) (v : vobj) : list (name * vobj) :=
  filter (fun kv => mem (fst kv) (map fst (h_merged h)))
    (map (fun k => (k, match find (fun kv => fst kv =? k) (h_merged h) with Some kv => snd kv | None => v end))
         (apply_order order (map fst (h_merged h)))).

(* the handle after a commit that published version [n] *)
Definition committed (h : handle (V := V)) (link : option name) (n : name) : handle :=
  {| h_ro := h_ro h; h_tree := h_tree h; h_dirty := false; h_link := link;
     h_created := h_created h; h_source := Some n; h_msources := [n];
     h_mode := h_mode h; h_bf := h_bf h; h_merged := [(n, version_of h link)];
     h_tombstoned := false; h_conf := h_conf h |}.

Definition publish (order : list name) (h : handle (V := V)) (link : option name) : Store.prog V (handle * cres) :=
  Do (RHash (OVer (version_of h link))) (fun r =>
    match r with
    | RName n =>
        Do (RPut PCur n (OVer (version_of h link))) (fun r2 =>
          match r2 with
          | ROk => bind (move_merged n (parents_of order h (version_of h link)))
                        (fun _ => Ret (committed h link n, COk (Some n)))
          | _ => Ret (h_flushed h link, CFail E_STORE)
          end)
    | _ => Fail E_BADOBJ
    end).

Lemma commit_eq order (h : handle (V := V)) :
  commit order h =
    if negb (commit_needed h) then Ret (h, COk (h_source h))
    else if h_ro h then Ret (h, CFail E_RO)
    else bind (flush_tree h) (fun '(link, stored) =>
           if negb stored then Ret (h_flushed h link, CFail E_STORE) else publish order h link).
Proof. reflexivity. Qed.

Fixpoint retire_script (n : name) (l : list (name * vobj)) : list (req V) :=
  match l with
  | [] => []
  | (k, v) :: l' =>
      if k =? n then retire_script n l' else RPut PMerged k (OVer v) :: RDel PCur k :: retire_script n l'
  end.

(* the link of the published version, when the tree (if stored) got the name [nn] *)
Definition commit_link (h : handle (V := V)) (nn : name) : option name :=
  if stores_tree h then Some nn else if h_dirty h then None else h_link h.

Definition publish_script order (h : handle (V := V)) link n : list (req V) :=
  RPut PCur n (OVer (version_of h link)) :: retire_script n (parents_of order h (version_of h link)).

Definition commit_script order (h : handle (V := V)) nn n : list (req V) :=
  (if stores_tree h then [RPut PNode nn (ONode (h_tree h))] else []) ++ publish_script order h (commit_link h nn) n.

Definition prefix {X} (l s : list X) : Prop := exists t, s = l ++ t.
Lemma prefix_nil {X} (s : list X) : prefix [] s.
Proof. exists s. reflexivity. Qed.
Lemma prefix_cons {X} (x : X) l s : prefix l s -> prefix (x :: l) (x :: s).
Proof. intros [t ->]. exists t. reflexivity. Qed.
Lemma prefix_app {X} (a l s : list X) : prefix l s -> prefix (a ++ l) (a ++ s).
Proof. intros [t ->]. exists t. apply app_assoc. Qed.
Lemma prefix_inv {X} (ms : list X) x s : prefix ms (x :: s) -> ms = [] \/ exists ms', ms = x :: ms' /\ prefix ms' s.
Proof.
  intros [t E]. destruct ms as [|y ms]; [auto|]. injection E as <- ->. right.
  exists ms. split; [reflexivity|exists t; reflexivity].
Qed.

Inductive retire_shape (n : name) : list (req V) -> Prop :=
| rs_nil : retire_shape n []
| rs_half k v : k <> n -> retire_shape n [RPut PMerged k (OVer v)]
| rs_pair k v l : k <> n -> retire_shape n l ->
    retire_shape n (RPut PMerged k (OVer v) :: RDel PCur k :: l).

Inductive commit_shape (h : handle (V := V)) : list (req V) -> Prop :=
| cs_none : commit_shape h []
| cs_node nn : commit_shape h [RPut PNode nn (ONode (h_tree h))]
| cs_stored nn n l :            (* the dirty tree was stored first, then the version *)
    retire_shape n l ->
    commit_shape h (RPut PNode nn (ONode (h_tree h)) :: RPut PCur n (OVer (version_of h (Some nn))) :: l)
| cs_clean n l :                (* nothing to store: the link the tree was loaded from, or none *)
    retire_shape n l ->
    commit_shape h (RPut PCur n (OVer (version_of h (if h_dirty h then None else h_link h))) :: l).

Definition acked (r : result (handle (V := V) * cres)) (n : name) : Prop :=
  exists h', r = Done (h', COk (Some n)).

(* every fault answer is allowed *)
Notation wp := (@wp V oeq (fun _ => True) _).

(* the segment [e] of a run that went on after the applied mutation [rq] *)
Lemma succ_muts_ok (e : list treq) rq : is_mut rq = true -> succ_muts (e ++ [(rq, true)]) = rq :: succ_muts e.
Proof. intros M. rewrite succ_muts_app. unfold succ_muts at 1, ok_mut. cbn. rewrite M. reflexivity. Qed.

(* retiring stops at the first request that is not applied; it returns unless the process died *)
Lemma move_merged_wp n l : forall b,
  wp (move_merged n l) (fun _ r e => (r = Done tt \/ r = Crashed) /\ prefix (succ_muts e) (retire_script n l)) b.
Proof.
  induction l as [|[key v] l IH]; intros b; cbn [move_merged retire_script].
  - split; [auto|apply prefix_nil].
  - destruct (key =? n); [apply IH|].
    apply wp_do; [reflexivity|intros _; split; [auto|apply prefix_nil]| |reflexivity|]; unfold after; cbn [exec_req fst snd].
    + apply wp_do; [reflexivity|intros _; split; [auto|apply prefix_cons, prefix_nil]| |reflexivity|]; unfold after; cbn [exec_req fst snd].
      * eapply wp_mono; [|apply IH]. intros b' r e (Hr & Hp).
        rewrite !succ_muts_ok by reflexivity. split; [exact Hr|apply prefix_cons, prefix_cons, Hp].
      * split; [auto|apply prefix_cons, prefix_nil].
    + split; [auto|apply prefix_nil].
Qed.

(* MakeRoot: the dirty tree is stored under its name, or there is nothing to store; a failed PUT
   is reported as a value *)
Lemma flush_tree_wp h b :
  wp (flush_tree h) (fun _ r e =>
    (r = Crashed /\ succ_muts e = []) \/
    exists nn stored, r = Done (commit_link h nn, stored) /\
      succ_muts e = if stored && stores_tree h then [RPut PNode nn (ONode (h_tree h))] else []) b.
Proof.
  unfold flush_tree, commit_link. destruct (stores_tree h); [|right; exists 0, true; auto].   (* no node is named: any name will do *)
  apply wp_hash. intros nn b1. apply wp_do; [reflexivity|auto| |reflexivity|]; unfold after; cbn [exec_req snd app].
  - right. exists nn, true. auto.
  - right. exists nn, false. auto.
Qed.

(* the version object is written with one PUT; then the parents are retired *)
Definition publish_post order (h : handle (V := V)) link : post (handle (V := V) * cres) :=
  fun _ r e =>
    (forall z, r <> Failed z) /\
    exists n, prefix (succ_muts e) (publish_script order h link n) /\
      forall n', acked r n' -> n' = n /\ In (RPut PCur n (OVer (version_of h link))) (succ_muts e).

Lemma publish_wp order h link b : wp (publish order h link) (publish_post order h link) b.
Proof.
  unfold publish. apply wp_hash. intros n b1.
  assert (Stop : forall b (r : result (handle (V := V) * cres)) e, succ_muts e = [] ->
            (forall z, r <> Failed z) -> (forall n', ~ acked r n') -> publish_post order h link b r e).
  { intros b0 r e E Hf Ha. split; [exact Hf|]. exists n. rewrite E. split; [apply prefix_nil|]. intros n' H. destruct (Ha _ H). }
  apply wp_do; [reflexivity| | |reflexivity|]; unfold after; cbn [exec_req snd app].
  - intros _. apply Stop; [reflexivity|discriminate|]. intros n' (h' & H). discriminate.
  - apply wp_bind. eapply wp_mono; [|apply move_merged_wp]. unfold bind_post, publish_post, publish_script.
    intros b' r e ([-> | ->] & Hp); cbn [ExecProofs.wp]; unfold after; cbn [app]; rewrite succ_muts_ok by reflexivity.
    + split; [discriminate|]. exists n. split; [apply prefix_cons, Hp|].
      intros n' (h' & H). injection H as _ <-. split; [reflexivity|left; reflexivity].
    + split; [discriminate|]. exists n. split; [apply prefix_cons, Hp|]. intros n' (h' & H). discriminate.
  - apply Stop; [reflexivity|discriminate|]. intros n' (h' & H). discriminate.
Qed.

Definition commit_post order (h : handle (V := V)) : post (handle (V := V) * cres) :=
  fun _ r e =>
    (forall z, r <> Failed z) /\ (commit_needed h = false -> e = []) /\
    exists nn n, prefix (succ_muts e) (commit_script order h nn n) /\
      forall n', acked r n' -> commit_needed h = true ->
        n' = n /\ In (RPut PCur n (OVer (version_of h (commit_link h nn)))) (succ_muts e).

Theorem commit_wp order h b : wp (commit order h) (commit_post order h) b.
Proof.
  assert (Stop : forall b (r : result (handle (V := V) * cres)) e, succ_muts e = [] ->
            (commit_needed h = false -> e = []) ->
            (forall z, r <> Failed z) -> (forall n', acked r n' -> commit_needed h = false) -> commit_post order h b r e).
  { intros b0 r e E He Hf Ha. split; [exact Hf|]. split; [exact He|]. exists 0, 0. rewrite E. split; [apply prefix_nil|].
    intros n' H N. rewrite (Ha _ H) in N. discriminate. }
  rewrite commit_eq. destruct (commit_needed h) eqn:N; cbn [negb].
  2:{ apply Stop; [reflexivity|reflexivity|discriminate|auto]. }
  destruct (h_ro h).
  { apply Stop; [reflexivity|discriminate|discriminate|]. intros n' (h' & H). discriminate. }
  apply wp_bind. eapply wp_mono; [|apply flush_tree_wp]. unfold bind_post.
  intros b1 r e1 [(-> & E)|(nn & stored & -> & E1)].
  - apply Stop; [exact E|discriminate|discriminate|]. intros n' (h' & H). discriminate.
  - destruct stored; cbn [negb andb] in *.
    + eapply wp_mono; [|apply publish_wp]. intros b' r e (Hf & n & Hp & Ha). unfold after.
      split; [exact Hf|]. split; [congruence|]. exists nn, n. rewrite succ_muts_app, E1. split; [apply prefix_app, Hp|].
      intros n' H _. destruct (Ha _ H) as [-> Hin]. split; [reflexivity|]. apply in_or_app. right. exact Hin.
    + unfold after. cbn [ExecProofs.wp app]. apply Stop; [exact E1|discriminate|discriminate|]. intros n' (h' & H). discriminate.
Qed.

(* the shapes, as facts about prefixes of the script ([commit_shape] does not say which of its cases
   [stores_tree h] selects) *)
Lemma retire_script_shape {n l ms} : prefix ms (retire_script n l) -> retire_shape n ms.
Proof.
  revert ms. induction l as [|[k v] l IH]; intros ms Hp; cbn [retire_script] in Hp.
  - destruct Hp as [t E]. destruct ms; [constructor|discriminate].
  - destruct (k =? n) eqn:K; [exact (IH _ Hp)|]. apply Z.eqb_neq in K.
    apply prefix_inv in Hp. destruct Hp as [->|(ms1 & -> & Hp)]; [constructor|].
    apply prefix_inv in Hp. destruct Hp as [->|(ms2 & -> & Hp)]; [apply rs_half, K|apply rs_pair; auto].
Qed.

Lemma commit_script_shape {order h nn n ms} : prefix ms (commit_script order h nn n) -> commit_shape h ms.
Proof.
  unfold commit_script, commit_link, publish_script. intros Hp. destruct (stores_tree h); cbn [app] in Hp.
  - apply prefix_inv in Hp. destruct Hp as [->|(ms1 & -> & Hp)]; [constructor|].
    apply prefix_inv in Hp. destruct Hp as [->|(ms2 & -> & Hp)]; [constructor|].
    apply cs_stored. exact (retire_script_shape Hp).
  - apply prefix_inv in Hp. destruct Hp as [->|(ms1 & -> & Hp)]; [constructor|].
    apply cs_clean. exact (retire_script_shape Hp).
Qed.

Theorem commit_script_spec {order h muts b tr b' r tr' muts'} :
  exec muts b (commit order h) tr b' r tr' muts' -> exists ext, tr' = ext ++ tr /\ commit_post order h b' r ext.
Proof. intros X. exact (wp_sound oeq plan crash _ (fun _ _ => I) X (commit_wp order h b)). Qed.

Theorem commit_protocol order h muts b tr b' r tr' muts' :
  exec muts b (commit order h) tr b' r tr' muts' ->
  exists ext, tr' = ext ++ tr /\
    commit_shape h (succ_muts ext) /\
    (commit_needed h = false -> ext = []) /\
    (commit_needed h = true -> forall n, acked r n ->
       exists v, In (RPut PCur n (OVer v)) (succ_muts ext)) /\
    (forall e, r = Failed e -> ~ exists n v, In (RPut PCur n (OVer v)) (succ_muts ext)).
Proof.
  intros X. destruct (commit_script_spec X) as (ext & -> & Hf & He & nn & n & Hp & Ha).
  exists ext. split; [reflexivity|]. split; [exact (commit_script_shape Hp)|]. split; [exact He|]. split.
  - intros N n' H. destruct (Ha _ H N) as [-> Hin]. eauto.
  - intros e ->. destruct (Hf e eq_refl).
Qed.

Definition has (m : omap V) (n : name) : Prop := o_get n m <> None.
Definition ver_present (b : bucket V) (n : name) : Prop := has (b_cur b) n \/ has (b_merged b) n.

Lemma has_put n k o (m : omap V) : has m n -> has (o_put k o m) n.
Proof.
  unfold has. intros H. destruct (Z.eq_dec n k) as [->|Hn].
  - rewrite get_put_same. discriminate.
  - rewrite get_put_other by exact Hn. exact H.
Qed.
Lemma has_del_other n k (m : omap V) : n <> k -> has m n -> has (o_del k m) n.
Proof. intros Hn H. unfold has. rewrite get_del_other by exact Hn. exact H. Qed.

(* the commit did not get as far as its version: at most the tree was stored *)
Definition unpublished (b b' : bucket V) : Prop :=
  b_cur b' = b_cur b /\ b_merged b' = b_merged b /\ forall x, has (b_node b) x -> has (b_node b') x.

(* version [n] is under current/ and links the tree ([nn] if it was stored); versions the handle
   had merged may have been retired *)
Definition published (h : handle (V := V)) (nn n : name) (b b' : bucket V) : Prop :=
  o_get n (b_cur b') = Some (OVer (version_of h (commit_link h nn))) /\
  (forall x, has (b_node b) x -> has (b_node b') x) /\
  (forall x, ver_present b x -> ver_present b' x) /\
  (forall x, x <> n -> o_get x (b_cur b') = o_get x (b_cur b) \/
                       (o_get x (b_cur b') = None /\ In x (map fst (h_merged h)))) /\
  (if stores_tree h then o_get nn (b_node b') = Some (ONode (h_tree h)) else b_node b' = b_node b).

(* the versions a commit retires are versions the handle merged, with the objects it read *)
Lemma parents_of_incl order h v : incl (parents_of order h v) (h_merged h).
Proof.
  intros [k v0] Hin. apply filter_In in Hin. destruct Hin as [Hin Hmem]. cbn [fst] in Hmem.
  apply in_map_iff in Hin. destruct Hin as (k0 & E & _). injection E as -> E.
  apply mem_in, in_map_iff in Hmem. destruct Hmem as ([k1 v1] & Ek & Hin1). cbn [fst] in Ek. subst k1.
  destruct (find (fun kv => fst kv =? k) (h_merged h)) as [[k2 v2]|] eqn:Hf.
  - apply find_some in Hf. destruct Hf as [Hin2 Hk]. apply Z.eqb_eq in Hk. cbn [fst snd] in *. subst. exact Hin2.
  - exfalso. apply (find_none _ _ Hf) in Hin1. cbn [fst] in Hin1. rewrite Z.eqb_refl in Hin1. discriminate.
Qed.

(* once the version is published, retiring parents keeps it so, wherever the retirement stops *)
Lemma retire_prefix_replay {h nn n b0 l} : incl l (h_merged h) ->
  forall ms b, prefix ms (retire_script n l) -> published h nn n b0 b -> published h nn n b0 (replay ms b).
Proof.
  induction l as [|[k v] l IH]; intros Hk ms b Hp P; cbn [retire_script] in Hp.
  - destruct Hp as [t E]. destruct ms; [exact P|discriminate].
  - assert (Hl : incl l (h_merged h)) by (intros x Hx; apply Hk; right; exact Hx).
    destruct (k =? n) eqn:K; [exact (IH Hl _ _ Hp P)|]. apply Z.eqb_neq in K.
    apply prefix_inv in Hp. destruct Hp as [->|(ms1 & -> & Hp)]; [exact P|].
    destruct P as (P1 & P2 & P3 & P4 & P5).
    (* the copy under merged/ ... *)
    assert (Q : published h nn n b0 (fst (exec_req oeq (RPut PMerged k (OVer v)) b))).
    { cbn. repeat split; auto. intros x Hx. destruct (P3 x Hx) as [H|H]; [left; exact H|right; apply has_put; exact H]. }
    apply prefix_inv in Hp. destruct Hp as [->|(ms2 & -> & Hp)]; [exact Q|].
    (* ... then the deletion from current/ *)
    rewrite !replay_cons. apply (IH Hl _ _ Hp). cbn [exec_req fst sel].
    split; [rewrite <- P1; apply get_del_other; congruence|]. split; [exact P2|]. split; [|split; [|exact P5]].
    + intros x Hx. unfold ver_present. cbn [b_cur b_merged upd]. destruct (Z.eq_dec x k) as [->|Hxk].
      * right. unfold has. rewrite get_put_same. discriminate.
      * destruct (P3 x Hx) as [H|H]; [left; apply has_del_other; assumption|right; apply has_put; exact H].
    + intros x Hx. cbn [b_cur upd]. destruct (Z.eq_dec x k) as [->|Hxk].
      * right. split; [apply get_del_same|]. exact (in_map fst _ _ (Hk _ (or_introl eq_refl))).
      * rewrite get_del_other by exact Hxk. exact (P4 x Hx).
Qed.

(* the PUT under current/ publishes, from a bucket [b1] in which at most the tree was stored *)
Lemma publish_prefix_replay order h nn n ms b b1 : unpublished b b1 ->
  (if stores_tree h then o_get nn (b_node b1) = Some (ONode (h_tree h)) else b_node b1 = b_node b) ->
  prefix ms (publish_script order h (commit_link h nn) n) -> ms = [] \/ published h nn n b (replay ms b1).
Proof.
  intros (Hc & Hm & Hn) Ht Hp. apply prefix_inv in Hp. destruct Hp as [->|(ms2 & -> & Hp)]; [auto|]. right.
  rewrite replay_cons. apply (retire_prefix_replay (parents_of_incl order h _) _ _ Hp). cbn [exec_req fst sel].
  split; [apply get_put_same|]. split; [exact Hn|]. split; [|split; [|exact Ht]].
  - intros x Hx. unfold ver_present. cbn [b_cur b_merged upd]. rewrite Hc, Hm.
    destruct Hx as [Hx|Hx]; [left; apply has_put; exact Hx|right; exact Hx].
  - intros x Hx. left. cbn [b_cur upd]. rewrite Hc. apply get_put_other. exact Hx.
Qed.

Lemma commit_prefix_replay {order h nn n ms} b : prefix ms (commit_script order h nn n) ->
  unpublished b (replay ms b) /\ (forall n' v, ~ In (RPut PCur n' (OVer v)) ms) \/
  published h nn n b (replay ms b).
Proof.
  (* in the context before the case split, which then decides its second premise *)
  pose proof (publish_prefix_replay order h nn n) as Pub.
  unfold commit_script. destruct (stores_tree h); cbn [app]; intros Hp.
  - apply prefix_inv in Hp. destruct Hp as [->|(ms1 & -> & Hp)]; [left; repeat split; auto|].
    rewrite replay_cons. cbn [exec_req fst sel].
    assert (U : unpublished b (upd PNode (o_put nn (ONode (h_tree h)) (b_node b)) b)).
    { repeat split; auto. intros x Hx. apply has_put. exact Hx. }
    destruct (Pub ms1 b _ U (get_put_same _ _ _) Hp) as [->|H]; [|auto].
    left. split; [exact U|]. intros n' v [H|[]]. discriminate.
  - assert (U : unpublished b b) by (repeat split; auto).
    destruct (Pub ms b b U eq_refl Hp) as [->|H]; [left; split; [exact U|intros n' v []]|auto].
Qed.

(* The bucket a commit leaves, cut anywhere: [unpublished], and then a commit that had something
   to publish is not acknowledged, or [published] with the name such a commit acknowledges.  It never ends in [Failed]: a storage failure is a
   value it returns (CFail). *)
Theorem commit_cut {order h muts b tr b' r tr' muts'} :
  exec muts b (commit order h) tr b' r tr' muts' ->
  (forall z, r <> Failed z) /\
  (unpublished b b' /\ (commit_needed h = true -> forall n, ~ acked r n) \/
   exists nn n, published h nn n b b' /\ forall n', acked r n' -> commit_needed h = true -> n' = n).
Proof.
  intros X. destruct (exec_replay _ _ _ _ _ _ _ _ X) as (ext0 & E0 & S1 & S2 & S3).
  destruct (commit_script_spec X) as (ext & -> & Hf & _ & nn & n & Hp & Ha).
  apply app_inv_tail in E0. subst ext0. split; [exact Hf|].
  destruct (commit_prefix_replay b Hp) as [[U Hn]|P]; [left|right; exists nn, n].
  - split; [unfold unpublished, has in *; rewrite S1, S2, S3; exact U|].
    intros N n' H. destruct (Ha _ H N) as [_ Hin]. exact (Hn _ _ Hin).
  - split; [unfold published, ver_present, has in *; rewrite S1, S2, S3; exact P|].
    intros n' H N. apply (Ha _ H N).
Qed.

(* which link the published version carries: the stored tree's name, none (a dirty empty tree), or
   the link of a clean handle *)
Lemma commit_link_cases h nn :
  stores_tree h = true /\ commit_link h nn = Some nn \/
  stores_tree h = false /\ (h_tree h = [] /\ commit_link h nn = None \/ h_dirty h = false /\ commit_link h nn = h_link h).
Proof.
  unfold commit_link, stores_tree. destruct (h_dirty h); [|auto]. destruct (h_tree h); cbn; auto.
Qed.

Theorem commit_bucket order h muts b tr b' r tr' muts' :
  exec muts b (commit order h) tr b' r tr' muts' ->
  (* nothing is lost *)
  (forall x, has (b_node b) x -> has (b_node b') x) /\
  (forall x, ver_present b x -> ver_present b' x) /\
  (* current/ gains at most the new version *)
  (forall e, r = Failed e -> b_cur b' = b_cur b /\ b_merged b' = b_merged b) /\
  (* an acknowledged commit is there, with its root node *)
  (commit_needed h = true -> forall n, acked r n ->
     (h_dirty h = false -> forall l, h_link h = Some l -> has (b_node b) l) ->
     exists v, o_get n (b_cur b') = Some (OVer v) /\ v_parents v = h_msources h /\
               forall l, v_link v = Some l -> has (b_node b') l).
Proof.
  intros X. destruct (commit_cut X) as (Hf & [((U1 & U2 & U3) & Na)|(nn & n & (P1 & P2 & P3 & _ & P5) & Ha)]).
  - split; [exact U3|]. split; [unfold ver_present; rewrite U1, U2; auto|]. split; [intros e ->; destruct (Hf e eq_refl)|].
    intros N n H. destruct (Na N n H).
  - split; [exact P2|]. split; [exact P3|]. split; [intros e ->; destruct (Hf e eq_refl)|].
    intros N n' H Hl. rewrite (Ha _ H N). eexists. split; [exact P1|]. split; [reflexivity|].
    cbn [version_of v_link]. destruct (commit_link_cases h nn) as [[St ->]|[St [[_ ->]|[D ->]]]]; rewrite St in P5.
    + intros l E. injection E as <-. unfold has. rewrite P5. discriminate.
    + discriminate.
    + rewrite P5. exact (Hl D).
Qed.

End Commit.
