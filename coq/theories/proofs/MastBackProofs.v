(* MastBackProofs.v — Cursor.Max / Backward on a tree that is a SINGLE NODE, a root without children
   (`leaf`): the descending walk returns the entries in reverse order.  Under the level discipline
   that is every tree of height 0, and mast stays at height 0 while the table has fewer rows than
   entries_per_node (4096 by default); neither step is proved, no theorem speaks of the grow
   threshold.  (On trees of several levels Backward as written is refuted:
   MastExamples.backward_scan_refuted, finding F-C06-2.) *)
From S3db Require Import Base KeyOrder Mast.
From S3db.proofs Require Import MastProofs MastCursorProofs.
Import ListNotations.
Local Open Scope nat_scope.

Section Back.
Context {V : Type}.
Notation mt := (mt V).

(* a node without children *)
Fixpoint leaf (n : mt) : Prop :=
  match n with
  | MEnd l => l = LNil
  | MCons l _ _ r => l = LNil /\ leaf r
  end.

(* its in-order contents are its own entries *)
Lemma leaf_key_at (n : mt) : leaf n -> forall i, key_at n i = nth_error (flat n) i.
Proof.
  induction n as [l|l k v r IH]; cbn [leaf key_at].
  - intros -> i. destruct i; reflexivity.
  - intros [-> Hr] i. rewrite flat_MCons, flat_LNil. destruct i as [|i']; [reflexivity|exact (IH Hr i')].
Qed.

Lemma leaf_nkeys (n : mt) : leaf n -> nkeys n = length (flat n).
Proof.
  induction n as [l|l k v r IH]; cbn [leaf nkeys].
  - intros ->. reflexivity.
  - intros [-> Hr]. rewrite flat_MCons, flat_LNil, (IH Hr). reflexivity.
Qed.

Lemma leaf_link_at (n : mt) : leaf n -> forall i, i <= nkeys n -> link_at n i = Some LNil.
Proof.
  induction n as [l0|l0 k v r IH]; cbn [leaf nkeys]; intros H i Hi.
  - assert (i = 0) by lia. subst. reflexivity.
  - destruct H as [-> Hr]. destruct i as [|i']; [reflexivity|]. cbn [link_at]. apply IH; [exact Hr|lia].
Qed.

Lemma firstn_snoc {A} (t : list A) : forall i x, nth_error t i = Some x -> firstn (S i) t = firstn i t ++ [x].
Proof.
  induction t as [|y t IH]; intros [|i] x E; try discriminate.
  - injection E as ->. reflexivity.
  - rewrite (firstn_cons (S i)), (IH i x E). reflexivity.
Qed.

(* the descending walk from index i of a childless root: keys i, i-1, ..., 0 *)
Lemma walk_back_leaf (n : mt) fuel : leaf n -> forall steps i, i < nkeys n -> i < steps ->
  c_walk_bwd steps fuel [(n, i)] = (rev (firstn (S i) (flat n)), WOk).
Proof.
  intros Hleaf. induction steps as [|s IH]; intros i Hi Hs; [lia|].
  destruct (proj2 (key_at_lt n i) Hi) as (kv & Hk).
  cbn [c_walk_bwd c_get c_backward]. rewrite Hk, (leaf_link_at n Hleaf 0) by lia.
  rewrite (leaf_key_at n Hleaf) in Hk. rewrite (firstn_snoc _ i kv Hk), rev_unit.
  destruct i as [|i']; [destruct s; reflexivity|]. rewrite IH by lia. reflexivity.
Qed.

Theorem single_node_descending_walk (m : mast V) n fuel steps :
  m_root m = LNode n -> leaf n -> 0 < nkeys n -> 0 < fuel -> nkeys n <= steps ->
  c_walk_bwd steps fuel (c_max fuel (mast_cursor m)) = (rev (mast_flat m), WOk).
Proof.
  intros Hr Hleaf Hk Hf Hs. unfold mast_cursor, mast_flat. rewrite Hr, flat_LNode.
  destruct fuel as [|f]; [lia|]. cbn [c_max c_max_from]. rewrite (leaf_link_at n Hleaf (nkeys n)) by lia.
  rewrite (walk_back_leaf n (S f) Hleaf) by lia.
  replace (S (pred (nkeys n))) with (nkeys n) by lia. rewrite (leaf_nkeys n Hleaf), firstn_all. reflexivity.
Qed.

End Back.
