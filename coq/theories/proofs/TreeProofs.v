(* TreeProofs.v — the sorted association list behaves as a finite map keyed by the
   equivalence classes of Key.Order, for keys in the safe domain (where Key.Order is SQLite's
   total order, see KeyOrderProofs.v). *)
From S3db Require Import Base KeyOrder RowMerge Tree.
From S3db.proofs Require Import KeyOrderProofs.
Import ListNotations.
Open Scope Z_scope.

(* the safe domain of C07: the keys on which Key.Order is SQLite's order *)
Definition D (k : sval) : Prop := safe_key k = true.

Lemma order_t_emb a b : D a -> D b -> order_t a b = bytes_cmp (emb a) (emb b).
Proof.
  intros Ha Hb. unfold order_t.
  rewrite order_safe_exact by assumption.
  rewrite order_exact_emb by (apply safe_valid; assumption). reflexivity.
Qed.

Lemma order_exact_some a b : D a -> D b -> order_exact a b = Some (order_t a b).
Proof. intros Ha Hb. rewrite order_t_emb by assumption. apply order_exact_emb; apply safe_valid; assumption. Qed.
Lemma order_some a b : D a -> D b -> order a b = Some (order_t a b).
Proof. intros Ha Hb. rewrite order_safe_exact by assumption. apply order_exact_some; assumption. Qed.

Lemma ot_refl a : D a -> order_t a a = Eq.
Proof. intros Ha. rewrite order_t_emb by assumption. apply bytes_cmp_refl. Qed.

Lemma ot_antisym a b : D a -> D b -> order_t b a = CompOpp (order_t a b).
Proof. intros Ha Hb. rewrite !order_t_emb by assumption. apply bytes_cmp_antisym. Qed.

Lemma ot_trans_lt a b c : D a -> D b -> D c ->
  order_t a b = Lt -> order_t b c = Lt -> order_t a c = Lt.
Proof. intros Ha Hb Hc. rewrite !order_t_emb by assumption. apply bytes_cmp_trans_lt. Qed.

Lemma ot_eq_emb a b : D a -> D b -> order_t a b = Eq -> emb a = emb b.
Proof. intros Ha Hb. rewrite order_t_emb by assumption. apply bytes_cmp_eq. Qed.

Lemma ot_eq_l a b c : D a -> D b -> D c -> order_t a b = Eq -> order_t a c = order_t b c.
Proof.
  intros Ha Hb Hc H. rewrite !order_t_emb by assumption.
  rewrite (ot_eq_emb a b Ha Hb H). reflexivity.
Qed.

Lemma ot_eq_r a b c : D a -> D b -> D c -> order_t a b = Eq -> order_t c a = order_t c b.
Proof.
  intros Ha Hb Hc H. rewrite !order_t_emb by assumption.
  rewrite (ot_eq_emb a b Ha Hb H). reflexivity.
Qed.

Lemma ot_gt_lt a b : D a -> D b -> order_t a b = Gt -> order_t b a = Lt.
Proof. intros Ha Hb H. rewrite (ot_antisym a b Ha Hb), H. reflexivity. Qed.
Lemma ot_lt_gt a b : D a -> D b -> order_t a b = Lt -> order_t b a = Gt.
Proof. intros Ha Hb H. rewrite (ot_antisym a b Ha Hb), H. reflexivity. Qed.
Lemma ot_eq_sym a b : D a -> D b -> order_t a b = Eq -> order_t b a = Eq.
Proof. intros Ha Hb H. rewrite (ot_antisym a b Ha Hb), H. reflexivity. Qed.

Lemma ot_le_lt a b c : D a -> D b -> D c ->
  order_t a b <> Gt -> order_t b c = Lt -> order_t a c = Lt.
Proof.
  intros Da Db Dc Hab Hbc. destruct (order_t a b) eqn:E; [|exact (ot_trans_lt a b c Da Db Dc E Hbc)|congruence].
  rewrite (ot_eq_l a b c Da Db Dc E). exact Hbc.
Qed.

Section Trees.
Context {V : Type}.
Notation tree := (tree V).

Definition keys_in (t : tree) : Prop := Forall (fun kv => D (fst kv)) t.

(* every key of t is strictly above k *)
Definition all_above (k : sval) (t : tree) : Prop := Forall (fun kv => order_t k (fst kv) = Lt) t.

Inductive wf : tree -> Prop :=
| wf_nil : wf []
| wf_cons k v t : D k -> wf t -> all_above k t -> wf ((k, v) :: t).

Lemma wf_cons_inv k v t : wf ((k, v) :: t) -> D k /\ wf t /\ all_above k t.
Proof. inversion 1; auto. Qed.

Lemma wf_keys t : wf t -> keys_in t.
Proof. induction 1; constructor; auto. Qed.

Lemma wf_In (t : tree) k v : wf t -> In (k, v) t -> D k.
Proof. intros H Hin. apply wf_keys in H. unfold keys_in in H. rewrite Forall_forall in H. exact (H _ Hin). Qed.

Lemma all_above_le k k' t : D k -> D k' -> keys_in t ->
  order_t k k' <> Gt -> all_above k' t -> all_above k t.
Proof.
  intros Dk Dk' Hin Hle Hab. unfold all_above, keys_in in *. rewrite Forall_forall in *.
  intros kv Hkv. exact (ot_le_lt k k' (fst kv) Dk Dk' (Hin kv Hkv) Hle (Hab kv Hkv)).
Qed.

(* lookups below the smallest key find nothing *)
Lemma get_above k t : all_above k t -> t_get k t = None.
Proof.
  intros [|[k' v'] t' H1 _]; [reflexivity|]. cbn [t_get]. cbn [fst] in H1. rewrite H1. reflexivity.
Qed.

Lemma get_below lo k t : D lo -> D k -> keys_in t -> all_above lo t -> order_t k lo <> Gt ->
  t_get k t = None.
Proof. intros Dlo Dk Hin Hab Hle. apply get_above. exact (all_above_le k lo t Dk Dlo Hin Hle Hab). Qed.

(* a predicate that holds of the new entry, and of a stored key with the new value, survives *)
Lemma insert_Forall (Q : sval * V -> Prop) k v t :
  Q (k, v) -> (forall k' v', Q (k', v') -> Q (k', v)) -> Forall Q t -> Forall Q (t_insert k v t).
Proof.
  intros Qn Qr Qt. induction Qt as [|[k' v'] t Q1 Qt IH]; cbn [t_insert]; [constructor; [exact Qn|constructor]|].
  destruct (order_t k k');
    [constructor; [exact (Qr k' v' Q1)|exact Qt] | constructor; [exact Qn|constructor; assumption] | constructor; assumption].
Qed.

Lemma insert_wf k v t : D k -> wf t -> wf (t_insert k v t).
Proof.
  intros Hk Hwf. induction Hwf as [|k' v' t Dk' Hwf IH Hab]; cbn.
  - constructor; [exact Hk|constructor|constructor].
  - destruct (order_t k k') eqn:E.
    + constructor; assumption.
    + constructor; [exact Hk| constructor; assumption |].
      constructor; [exact E|]. apply (all_above_le k k'); auto; [apply wf_keys; exact Hwf | rewrite E; discriminate].
    + constructor; [exact Dk'|exact IH|].
      apply insert_Forall; [apply ot_gt_lt; assumption | auto | exact Hab].
Qed.

Lemma get_insert k k' v t : D k -> D k' -> wf t ->
  t_get k' (t_insert k v t) = match order_t k' k with Eq => Some v | _ => t_get k' t end.
Proof.
  intros Dk Dk' W. induction W as [|k1 v1 t D1 W IH Ab]; cbn [t_insert t_get].
  - destruct (order_t k' k); reflexivity.
  - destruct (order_t k k1) eqn:E; cbn [t_get].
    + rewrite <- (ot_eq_r k k1 k' Dk D1 Dk' E). destruct (order_t k' k); reflexivity.
    + destruct (order_t k' k) eqn:E'; try reflexivity.
      rewrite (ot_trans_lt k' k k1 Dk' Dk D1 E' E). reflexivity.
    + rewrite IH. destruct (order_t k' k) eqn:E'; [rewrite (ot_eq_l k' k k1 Dk' Dk D1 E'), E; reflexivity| |];
        destruct (order_t k' k1); reflexivity.
Qed.

(* storing what is stored already leaves the list as it is, stored key included *)
Lemma insert_same k v (t : tree) : t_get k t = Some v -> t_insert k v t = t.
Proof.
  induction t as [|[k1 v1] t IH]; cbn [t_get t_insert]; [discriminate|].
  destruct (order_t k k1); [intros [= ->]; reflexivity|discriminate|]. intros G. rewrite (IH G). reflexivity.
Qed.

Lemma get_eq_key k k2 t : D k -> D k2 -> wf t -> order_t k k2 = Eq -> t_get k t = t_get k2 t.
Proof.
  intros Hk Hk2 Hwf Heq. induction Hwf as [|k' v' t Dk' Hwf IH Hab]; cbn; [reflexivity|].
  rewrite (ot_eq_l k k2 k') by assumption.
  destruct (order_t k2 k'); auto.
Qed.

Lemma delete_Forall (Q : sval * V -> Prop) k t : Forall Q t -> Forall Q (t_delete k t).
Proof.
  intros Qt. induction Qt as [|[k' v'] t Q1 Qt IH]; cbn [t_delete]; [constructor|].
  destruct (order_t k k'); [exact Qt | constructor; assumption | constructor; assumption].
Qed.

Lemma delete_absent_id k (t : tree) : t_get k t = None -> t_delete k t = t.
Proof.
  induction t as [|[k1 v1] t IH]; cbn [t_get t_delete]; [reflexivity|].
  destruct (order_t k k1); [discriminate|reflexivity|]. intros Hg. rewrite IH; auto.
Qed.

Lemma delete_wf k t : wf t -> wf (t_delete k t).
Proof.
  intros Hwf. induction Hwf as [|k' v' t Dk' Hwf IH Hab]; cbn; [constructor|].
  destruct (order_t k k'); [exact Hwf | constructor; assumption |].
  constructor; [exact Dk' | exact IH | apply delete_Forall; exact Hab].
Qed.

Lemma get_delete k k' t : D k -> D k' -> wf t ->
  t_get k' (t_delete k t) = match order_t k' k with Eq => None | _ => t_get k' t end.
Proof.
  intros Dk Dk' W. induction W as [|k1 v1 t D1 W IH Ab]; cbn [t_delete t_get].
  - destruct (order_t k' k); reflexivity.
  - pose proof (get_below k1 k' t D1 Dk' (wf_keys t W) Ab) as Hab.
    destruct (order_t k k1) eqn:E; cbn [t_get].
    + rewrite <- (ot_eq_r k k1 k' Dk D1 Dk' E) in *.
      destruct (order_t k' k); try reflexivity; apply Hab; discriminate.
    + destruct (order_t k' k) eqn:E'; try reflexivity.
      rewrite (ot_eq_l k' k k1 Dk' Dk D1 E'), E. reflexivity.
    + rewrite IH. destruct (order_t k' k) eqn:E'; [rewrite (ot_eq_l k' k k1 Dk' Dk D1 E'), E; reflexivity| |];
        destruct (order_t k' k1); reflexivity.
Qed.

Lemma get_delete_same k t : D k -> wf t -> t_get k (t_delete k t) = None.
Proof. intros Hk Hwf. rewrite get_delete, ot_refl by assumption. reflexivity. Qed.

Lemma get_delete_other k k2 t : D k -> D k2 -> wf t -> order_t k2 k <> Eq ->
  t_get k2 (t_delete k t) = t_get k2 t.
Proof. intros Hk Hk2 Hwf Hne. rewrite get_delete by assumption. destruct (order_t k2 k); congruence. Qed.

Lemma get_some_in k (t : tree) v : t_get k t = Some v -> exists k', In (k', v) t /\ order_t k k' = Eq.
Proof.
  induction t as [|[k' v'] t IH]; cbn [t_get]; [discriminate|].
  destruct (order_t k k') eqn:E; try discriminate.
  - intros H. injection H as <-. exists k'. split; [left; reflexivity|exact E].
  - intros H. destruct (IH H) as (k2 & Hin & He). exists k2. split; [right; exact Hin|exact He].
Qed.

(* well-formedness speaks of the keys only *)
Lemma wf_same_keys t : forall t', map fst t = map fst t' -> wf t -> wf t'.
Proof.
  intros t' E W. revert t' E. induction W as [|k v t Dk W IH Ab]; intros [|[k' v'] t'] E; try discriminate; [constructor|].
  injection E as <- E. constructor; [exact Dk|exact (IH t' E)|].
  apply (Forall_map fst (fun k' => order_t k k' = Lt)). rewrite <- E.
  apply (Forall_map fst (fun k' => order_t k k' = Lt)). exact Ab.
Qed.

(* concatenations: a part that lies wholly below or wholly above k is passed over *)
Lemma insert_app_lt k v (a b : tree) : Forall (fun kv => order_t k (fst kv) = Gt) a ->
  t_insert k v (a ++ b) = a ++ t_insert k v b.
Proof.
  induction 1 as [|[k1 v1] a H1 _ IH]; [reflexivity|].
  cbn [app t_insert]. cbn [fst] in H1. rewrite H1, IH. reflexivity.
Qed.

Lemma insert_app_above k v (a b : tree) : all_above k b -> t_insert k v (a ++ b) = t_insert k v a ++ b.
Proof.
  intros Hb. induction a as [|[k1 v1] a IH].
  - destruct Hb as [|[k2 v2] b H1 _]; [reflexivity|]. cbn [app t_insert]. cbn [fst] in H1. rewrite H1. reflexivity.
  - cbn [app t_insert]. destruct (order_t k k1); cbn [app]; try reflexivity. rewrite IH. reflexivity.
Qed.

Lemma get_app_lt k (a b : tree) : Forall (fun kv => order_t k (fst kv) = Gt) a ->
  t_get k (a ++ b) = t_get k b.
Proof.
  induction 1 as [|[k1 v1] a H1 _ IH]; [reflexivity|].
  cbn [app t_get]. cbn [fst] in H1. rewrite H1. exact IH.
Qed.

Lemma get_app_above k (a b : tree) : all_above k b -> t_get k (a ++ b) = t_get k a.
Proof.
  intros Hb. induction a as [|[k1 v1] a IH].
  - exact (get_above k b Hb).
  - cbn [app t_get]. destruct (order_t k k1); auto.
Qed.

Lemma delete_app_lt k (a b : tree) : Forall (fun kv => order_t k (fst kv) = Gt) a ->
  t_delete k (a ++ b) = a ++ t_delete k b.
Proof.
  induction 1 as [|[k1 v1] a H1 _ IH]; [reflexivity|].
  cbn [app t_delete]. cbn [fst] in H1. rewrite H1, IH. reflexivity.
Qed.

Lemma delete_app_above k (a b : tree) : all_above k b -> t_delete k (a ++ b) = t_delete k a ++ b.
Proof.
  intros Hb. induction a as [|[k1 v1] a IH].
  - destruct Hb as [|[k2 v2] b H1 _]; [reflexivity|]. cbn [app t_delete]. cbn [fst] in H1. rewrite H1. reflexivity.
  - cbn [app t_delete]. destruct (order_t k k1); cbn [app]; try reflexivity. rewrite IH. reflexivity.
Qed.

Lemma ceil_app_lt k (a b : tree) : Forall (fun kv => order_t k (fst kv) = Gt) a ->
  t_ceil k (a ++ b) = t_ceil k b.
Proof.
  induction 1 as [|[k1 v1] a H1 _ IH]; [reflexivity|].
  cbn [app t_ceil]. cbn [fst] in H1. rewrite H1. exact IH.
Qed.

Lemma ceil_app_above k (a b : tree) : all_above k b -> t_ceil k (a ++ b) = t_ceil k a ++ b.
Proof.
  intros Hb. induction a as [|[k1 v1] a IH]; cbn [app t_ceil].
  - destruct Hb as [|[k2 v2] b H1 _]; [reflexivity|]. cbn [t_ceil]. cbn [fst] in H1. rewrite H1. reflexivity.
  - destruct (order_t k k1); cbn [app]; try reflexivity. exact IH.
Qed.

(* walked backwards, the prefix below m is passed over and kept, reversed *)
Lemma ceil_back_app_lt m (a b acc : tree) : Forall (fun kv => order_t m (fst kv) = Gt) a ->
  t_ceil_back m (a ++ b) acc = t_ceil_back m b (rev a ++ acc).
Proof.
  intros H. revert acc. induction H as [|[k v] a H1 _ IH]; intros acc; [reflexivity|].
  cbn [app t_ceil_back rev]. cbn [fst] in H1. rewrite H1, IH, <- app_assoc. reflexivity.
Qed.

Lemma all_above_app k (a b : tree) : all_above k (a ++ b) <-> all_above k a /\ all_above k b.
Proof. apply Forall_app. Qed.

Lemma wf_app_inv (a b : tree) : wf (a ++ b) ->
  wf a /\ wf b /\ Forall (fun x => all_above (fst x) b) a.
Proof.
  induction a as [|[k1 v1] a IH]; cbn [app]; intros H.
  - repeat split; [constructor | assumption | constructor].
  - destruct (wf_cons_inv _ _ _ H) as (Hk & Hw & Ha). destruct (IH Hw) as (Wa & Wb & Hab).
    apply all_above_app in Ha. destruct Ha as [Ha1 Ha2].
    repeat split; [constructor; assumption | assumption | constructor; [exact Ha2 | exact Hab]].
Qed.

(* an entry of a well-formed list against the rest: what stands before it lies below its key, what
   stands after it above *)
Lemma wf_entry (a b : tree) k v : wf (a ++ (k, v) :: b) ->
  D k /\ (forall k' v', In (k', v') a -> D k' /\ order_t k' k = Lt) /\
         (forall k' v', In (k', v') b -> D k' /\ order_t k k' = Lt).
Proof.
  intros W. destruct (wf_app_inv _ _ W) as (Wa & Wb & Hab). destruct (wf_cons_inv _ _ _ Wb) as (Dk & Wb' & Ab).
  split; [exact Dk|]. split; intros k' v' Hin.
  - split; [exact (wf_In a k' v' Wa Hin)|]. rewrite Forall_forall in Hab. exact (Forall_inv (Hab _ Hin)).
  - split; [exact (wf_In b k' v' Wb' Hin)|]. unfold all_above in Ab. rewrite Forall_forall in Ab. exact (Ab _ Hin).
Qed.

(* a key against a sorted list  a ++ (k1,v1) :: b : where it falls, and what each list operation does there
   (what the node-level operations of MastProofs do at an entry of a node) *)
Lemma pivot_sides k (a : tree) k1 v1 b : D k -> wf (a ++ (k1, v1) :: b) ->
  match order_t k k1 with
  | Lt => all_above k ((k1, v1) :: b)
  | _ => Forall (fun kv => order_t k (fst kv) = Gt) a
  end.
Proof.
  intros Dk Hw. destruct (wf_entry a b k1 v1 Hw) as (Dk1 & Ha & Hb).
  destruct (order_t k k1) eqn:E; [| constructor; [exact E|] |]; apply Forall_forall; intros [k' v'] Hin; cbn [fst].
  - destruct (Ha k' v' Hin) as [Dk' Hlt]. rewrite (ot_eq_l k k1 k' Dk Dk1 Dk' E). exact (ot_lt_gt k' k1 Dk' Dk1 Hlt).
  - destruct (Hb k' v' Hin) as [Dk' Hlt]. exact (ot_trans_lt k k1 k' Dk Dk1 Dk' E Hlt).
  - destruct (Ha k' v' Hin) as [Dk' Hlt]. apply ot_lt_gt; [exact Dk'|exact Dk|].
    exact (ot_trans_lt k' k1 k Dk' Dk1 Dk Hlt (ot_gt_lt k k1 Dk Dk1 E)).
Qed.

Lemma get_pivot k (a : tree) k1 v1 b : D k -> wf (a ++ (k1, v1) :: b) ->
  t_get k (a ++ (k1, v1) :: b) =
  match order_t k k1 with Eq => Some v1 | Lt => t_get k a | Gt => t_get k b end.
Proof.
  intros Dk Hw. pose proof (pivot_sides k a k1 v1 b Dk Hw) as H.
  destruct (order_t k k1) eqn:E;
    [rewrite get_app_lt by exact H; cbn [t_get]; rewrite E; reflexivity
    |apply get_app_above; exact H
    |rewrite get_app_lt by exact H; cbn [t_get]; rewrite E; reflexivity].
Qed.

Lemma insert_pivot k v (a : tree) k1 v1 b : D k -> wf (a ++ (k1, v1) :: b) ->
  t_insert k v (a ++ (k1, v1) :: b) =
  match order_t k k1 with
  | Eq => a ++ (k1, v) :: b
  | Lt => t_insert k v a ++ (k1, v1) :: b
  | Gt => a ++ (k1, v1) :: t_insert k v b
  end.
Proof.
  intros Dk Hw. pose proof (pivot_sides k a k1 v1 b Dk Hw) as H.
  destruct (order_t k k1) eqn:E;
    [rewrite insert_app_lt by exact H; cbn [t_insert]; rewrite E; reflexivity
    |apply insert_app_above; exact H
    |rewrite insert_app_lt by exact H; cbn [t_insert]; rewrite E; reflexivity].
Qed.

Lemma delete_pivot k (a : tree) k1 v1 b : D k -> wf (a ++ (k1, v1) :: b) ->
  t_delete k (a ++ (k1, v1) :: b) =
  match order_t k k1 with
  | Eq => a ++ b
  | Lt => t_delete k a ++ (k1, v1) :: b
  | Gt => a ++ (k1, v1) :: t_delete k b
  end.
Proof.
  intros Dk Hw. pose proof (pivot_sides k a k1 v1 b Dk Hw) as H.
  destruct (order_t k k1) eqn:E;
    [rewrite delete_app_lt by exact H; cbn [t_delete]; rewrite E; reflexivity
    |apply delete_app_above; exact H
    |rewrite delete_app_lt by exact H; cbn [t_delete]; rewrite E; reflexivity].
Qed.

Lemma ceil_pivot k (a : tree) k1 v1 b : D k -> wf (a ++ (k1, v1) :: b) ->
  t_ceil k (a ++ (k1, v1) :: b) =
  match order_t k k1 with Eq => (k1, v1) :: b | Lt => t_ceil k a ++ (k1, v1) :: b | Gt => t_ceil k b end.
Proof.
  intros Dk Hw. pose proof (pivot_sides k a k1 v1 b Dk Hw) as H.
  destruct (order_t k k1) eqn:E;
    [rewrite ceil_app_lt by exact H; cbn [t_ceil]; rewrite E; reflexivity
    |apply ceil_app_above; exact H
    |rewrite ceil_app_lt by exact H; cbn [t_ceil]; rewrite E; reflexivity].
Qed.

(* every entry of a well-formed tree is found under its key *)
Lemma get_in k (v : V) (t : tree) : wf t -> In (k, v) t -> t_get k t = Some v.
Proof.
  intros W Hin. destruct (in_split _ _ Hin) as (a & b & ->). destruct (wf_entry a b k v W) as (Dk & _).
  rewrite (get_pivot k a k v b Dk W), (ot_refl k Dk). reflexivity.
Qed.

Lemma ceil_length k (t : tree) : (length (t_ceil k t) <= length t)%nat.
Proof. induction t as [|[k1 v1] t IH]; cbn [t_ceil length]; [lia|]. destruct (order_t k k1); cbn [length]; lia. Qed.

(* Ceil(m) cuts the list before the first key that is not below m *)
Lemma ceil_split m (t : tree) : exists a b, t = a ++ b /\ t_ceil m t = b /\
  Forall (fun kv => order_t m (fst kv) = Gt) a /\
  match b with [] => True | x :: _ => order_t m (fst x) <> Gt end.
Proof.
  induction t as [|[k v] t IH]; [exists [], []; repeat split; constructor|].
  cbn [t_ceil]. destruct (order_t m k) eqn:E.
  1,2: exists [], ((k, v) :: t); repeat split; [constructor|cbn [fst]; congruence].
  destruct IH as (a & b & -> & Hc & Ha & Hhd). exists ((k, v) :: a), b.
  repeat split; [exact Hc|constructor; assumption|exact Hhd].
Qed.

(* where a descending scan bounded by m starts (Ceil walked backwards, or the end of the list when
   Ceil runs off it): at the end of a prefix that leaves out only keys above m *)
Lemma ceil_back_split m (t : tree) : D m -> wf t -> exists a b, t = a ++ b /\
  match t_ceil_back m t [] return tree with [] => rev t | l => l end = rev a /\
  forall k v, In (k, v) b -> order_t m k = Lt.
Proof.
  intros Dm W. destruct (ceil_split m t) as (a & b & -> & _ & Ha & Hhd).
  rewrite (ceil_back_app_lt m a b [] Ha), app_nil_r. destruct b as [|[kx vx] b]; cbn [t_ceil_back].
  - exists a, []. rewrite app_nil_r. repeat split. intros ? ? [].
  - cbn [fst] in Hhd. exists (a ++ [(kx, vx)]), b. rewrite <- app_assoc, rev_unit.
    repeat split; [destruct (order_t m kx); [reflexivity..|congruence]|]. intros k v Hin.
    destruct (wf_entry a b kx vx W) as (Dkx & _ & Hb). destruct (Hb k v Hin) as [Dk Hlt].
    exact (ot_le_lt m kx k Dm Dkx Dk Hhd Hlt).
Qed.

End Trees.

Section MergeTrees.
Context {V : Type}.
Variable f : cval V -> cval V -> option (cval V).
Variable g : cval V -> cval V -> cval V.
Variable veq : cval V -> cval V -> bool.
(* P: the values that occur (e.g. SQL-reachable, pairwise compatible entries) *)
Variable P : cval V -> Prop.
Hypothesis f_total : forall x y, P x -> P y -> f x y = Some (g x y).
Hypothesis g_closed : forall x y, P x -> P y -> P (g x y).

Definition vals_in (t : tree (cval V)) : Prop := Forall (fun kv => P (snd kv)) t.

Definition join_opt (a b : option (cval V)) : option (cval V) :=
  match a, b with
  | None, None => None
  | Some x, None => Some x
  | None, Some y => Some y
  | Some x, Some y => if veq x y then Some x else Some (g x y)
  end.

Lemma get_vals k (t : tree (cval V)) x : vals_in t -> t_get k t = Some x -> P x.
Proof.
  intros Hv G. destruct (get_some_in k t x G) as (k' & Hin & _).
  unfold vals_in in Hv. rewrite Forall_forall in Hv. exact (Hv _ Hin).
Qed.

Lemma get_vals_opt k (t : tree (cval V)) : vals_in t -> match t_get k t with Some x => P x | None => True end.
Proof. intros Hv. destruct (t_get k t) as [x|] eqn:E; [exact (get_vals k t x Hv E)|exact I]. Qed.

Lemma insert_vals k v (t : tree (cval V)) : P v -> vals_in t -> vals_in (t_insert k v t).
Proof. intros Pv. apply insert_Forall; auto. Qed.

Lemma join1_total a y : (match a with Some x => P x | None => True end) -> P y ->
  exists z, join1 f veq a (Some y) = Some (Some z) /\ join_opt a (Some y) = Some z /\ P z.
Proof.
  intros Pa Py. unfold join1, join_opt. destruct a as [x|]; [|eexists; repeat split; auto].
  destruct (veq x y); [eexists; repeat split; auto|].
  rewrite f_total by assumption. eexists; repeat split. apply g_closed; assumption.
Qed.

Theorem merge_into_pointwise (graft : tree (cval V)) : forall acc,
  wf acc -> wf graft -> vals_in acc -> vals_in graft ->
  exists t', merge_into f veq acc graft = Some t' /\ wf t' /\ vals_in t' /\
             forall k, D k -> t_get k t' = join_opt (t_get k acc) (t_get k graft).
Proof.
  induction graft as [|[k1 y] g' IH]; intros acc Hacc Hg Vacc Vg.
  - exists acc. repeat split; auto. intros k _. destruct (t_get k acc); reflexivity.
  - destruct (wf_cons_inv _ _ _ Hg) as (Dk1 & Hg' & Hab). cbn [merge_into].
    destruct (join1_total (t_get k1 acc) y (get_vals_opt k1 acc Vacc) (Forall_inv Vg)) as (z & Hj & Hz & Pz).
    rewrite Hj.
    destruct (IH (t_insert k1 z acc) (insert_wf k1 z acc Dk1 Hacc) Hg' (insert_vals k1 z acc Pz Vacc) (Forall_inv_tail Vg))
      as (t' & Hm & Hwf' & Vt' & Hget).
    exists t'. repeat split; auto.
    intros k Hk. rewrite (Hget k Hk), get_insert by assumption. cbn [t_get].
    (* at or below k1 the rest of the graft holds nothing *)
    pose proof (get_below k1 k g' Dk1 Hk (wf_keys _ Hg') Hab) as Hn.
    destruct (order_t k k1) eqn:E; [|rewrite Hn by discriminate; reflexivity|reflexivity].
    rewrite Hn, (get_eq_key k k1 acc), Hz by (assumption || discriminate). reflexivity.
Qed.

End MergeTrees.
