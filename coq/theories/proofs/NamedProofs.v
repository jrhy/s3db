(* NamedProofs.v — stored objects are immutable and content-named.
   The naming table of the bucket model (content -> name, Store.intern) is the model of
   "the name of an object is the hash of its bytes".  Invariant [Named]: every stored object
   is in the table under its own name, and the table never maps a name to two contents.
   A program is [wn] ("well named") when every PUT it can issue stores, under a name, a
   content it obtained for that name from a hash request or read under that name before.
   For every fault plan and crash point, running a [wn] program keeps [Named] and only grows
   the table; hence a name, once it denotes a content, denotes that content for ever. *)
From S3db Require Import Base Tree Store KvProto.
From S3db.proofs Require Import ProtoProofs ExecProofs CommitProofs.
Import ListNotations.
Open Scope Z_scope.

Section Named.
Context {V : Type}.
Variable oeq : obj V -> obj V -> bool.
Hypothesis oeq_eq : forall a b, oeq a b = true -> a = b.
Variable plan : list fault.
Variable crash : option Z.

Notation exec := (@exec V oeq plan crash _).
Notation kn := (list (name * obj V)).

(* [K]: the (name, content) pairs the program has learnt so far; [Q]: what is known when it returns *)
Inductive wn {A} (Q : kn -> A -> Prop) : kn -> Store.prog V A -> Prop :=
| wn_ret K a : Q K a -> wn Q K (Ret a)
| wn_fail K e : wn Q K (Fail e)
| wn_hash K o k : (forall n, wn Q ((n, o) :: K) (k (RName n))) -> wn Q K (Do (RHash o) k)
| wn_get K p n k :
    (forall rs, wn Q (match rs with RObj o => (n, o) :: K | _ => K end) (k rs)) ->
    wn Q K (Do (RGet p n) k)
| wn_put K p n o k : In (n, o) K -> (forall rs, wn Q K (k rs)) -> wn Q K (Do (RPut p n o) k)
| wn_list K p k : (forall rs, wn Q K (k rs)) -> wn Q K (Do (RList p) k)
| wn_del K p n k : (forall rs, wn Q K (k rs)) -> wn Q K (Do (RDel p n) k).

(* what [wn] says of a program, by its first step *)
Lemma wn_inv {A} Q K (p : Store.prog V A) : wn Q K p ->
  match p with
  | Ret a => Q K a
  | Fail _ => True
  | Do (RHash o) k => forall n, wn Q ((n, o) :: K) (k (RName n))
  | Do (RGet _ n) k => forall rs, wn Q (match rs with RObj o => (n, o) :: K | _ => K end) (k rs)
  | Do (RPut _ n o) k => In (n, o) K /\ forall rs, wn Q K (k rs)
  | Do _ k => forall rs, wn Q K (k rs)
  end.
Proof. intros W. destruct W; auto. Qed.

(* the rule of consequence; the knowledge only grows, and the weakening may rely on that *)
Lemma wn_mono {A} (Q Q' : kn -> A -> Prop) K0 K p :
  (forall K' a, incl K0 K' -> Q K' a -> Q' K' a) -> incl K0 K -> wn Q K p -> wn Q' K p.
Proof.
  intros HQ Hi H. induction H as [| | ? ? ? _ IH| ? ? ? ? _ IH| | |]; constructor; auto.
  - intros n. apply IH, incl_tl, Hi.
  - intros rs. apply IH. destruct rs; auto using incl_tl.
Qed.

Lemma wn_bind {A B} (Q1 : kn -> A -> Prop) (Q2 : kn -> B -> Prop) K p (f : A -> Store.prog V B) :
  wn Q1 K p -> (forall K' a, Q1 K' a -> wn Q2 K' (f a)) -> wn Q2 K (bind p f).
Proof.
  intros H Hf. induction H; cbn [bind]; try (constructor; auto; fail).
  apply Hf. assumption.
Qed.

Lemma wn_incl {A} (Q : kn -> A -> Prop) K0 K p :
  incl K0 K -> wn Q K p -> wn (fun K' a => incl K0 K' /\ Q K' a) K p.
Proof. apply wn_mono. auto. Qed.

Definition is_put (r : req V) : bool := match r with RPut _ _ _ => true | _ => false end.

Inductive no_put {A} : Store.prog V A -> Prop :=
| np_ret a : no_put (Ret a)
| np_fail e : no_put (Fail e)
| np_do r k : is_put r = false -> (forall x, no_put (k x)) -> no_put (Do r k).

Lemma no_mut_no_put {A} (p : Store.prog V A) : no_mut p -> no_put p.
Proof.
  induction 1 as [a|e|r k Hr Hk IH]; constructor; auto. destruct r; cbn in *; congruence.
Qed.

Lemma no_put_bind {A B} (p : Store.prog V A) (f : A -> Store.prog V B) :
  no_put p -> (forall a, no_put (f a)) -> no_put (bind p f).
Proof.
  intros Hp Hf. induction Hp as [a|e|r k Hr Hk IH]; cbn [bind]; [apply Hf|constructor|constructor; auto].
Qed.

Lemma no_put_catch {A} (p : Store.prog V A) : no_put p -> no_put (catch p).
Proof. induction 1 as [a|e|r k Hr Hk IH]; cbn [catch]; constructor; auto. Qed.

(* a program without PUT is well named; it learns nothing we rely on *)
Lemma no_put_wn {A} (p : Store.prog V A) : no_put p -> forall K, wn (fun _ _ => True) K p.
Proof.
  induction 1 as [a|e|r k Hr Hk IH]; intros K.
  - constructor. exact I.
  - constructor.
  - destruct r as [pf|pf nn|pf nn o|pf nn|o]; cbn in Hr; try discriminate; constructor; intros; apply IH.
Qed.

Definition tbl_ok (b : bucket V) : Prop :=
  NoDup (map fst (b_tbl b)) /\ forall n o, In (n, o) (b_tbl b) -> n < b_next b.
Definition sub_tbl (b : bucket V) (m : omap V) : Prop :=
  forall n o, o_get n m = Some o -> In (n, o) (b_tbl b).
Definition Named (b : bucket V) : Prop :=
  tbl_ok b /\ sub_tbl b (b_node b) /\ sub_tbl b (b_cur b) /\ sub_tbl b (b_merged b).

Lemma named_sel b p : Named b -> sub_tbl b (sel p b).
Proof. intros (_ & H1 & H2 & H3). destruct p; assumption. Qed.

Lemma named_empty : Named (@empty_bucket V).
Proof.
  repeat split; cbn; try constructor; try (intros n o H; discriminate). intros n o [].
Qed.

Lemma tbl_functional b n o1 o2 : tbl_ok b -> In (n, o1) (b_tbl b) -> In (n, o2) (b_tbl b) -> o1 = o2.
Proof.
  intros [Hnd _]. induction (b_tbl b) as [|[k o] t IH]; cbn [map fst In] in *; [intros []|].
  inversion Hnd as [|? ? Hnotin Hnd']; subst.
  intros [H1|H1] [H2|H2].
  - congruence.
  - injection H1 as -> ->. exfalso. apply Hnotin. apply in_map_iff. exists (n, o2). split; auto.
  - injection H2 as -> ->. exfalso. apply Hnotin. apply in_map_iff. exists (n, o1). split; auto.
  - exact (IH Hnd' H1 H2).
Qed.

Lemma tbl_find_in o t n : tbl_find oeq o t = Some n -> In (n, o) t.
Proof.
  induction t as [|[k o'] t IH]; cbn [tbl_find]; [discriminate|].
  destruct (oeq o o') eqn:E.
  - intros H. injection H as ->. apply oeq_eq in E. subst o'. left. reflexivity.
  - intros H. right. exact (IH H).
Qed.

Lemma intern_named o b : Named b ->
  let '(b1, n) := intern oeq o b in
  Named b1 /\ In (n, o) (b_tbl b1) /\ (forall x, In x (b_tbl b) -> In x (b_tbl b1)).
Proof.
  intros (Hok & H1 & H2 & H3). unfold intern.
  destruct (tbl_find oeq o (b_tbl b)) as [n|] eqn:E.
  - split; [repeat split; try assumption; apply Hok|]. split; [exact (tbl_find_in _ _ _ E)|auto].
  - destruct Hok as [Hnd Hlt].
    split; [|split; [left; reflexivity|intros x Hx; right; exact Hx]].
    split; [split|].
    + cbn [b_tbl map fst]. constructor; [|exact Hnd].
      intros Hin. apply in_map_iff in Hin. destruct Hin as ([k o'] & Hk & Hin). cbn in Hk. subst k.
      apply Hlt in Hin. lia.
    + cbn [b_tbl b_next]. intros n o' [H|H]; [injection H as <- <-; lia|apply Hlt in H; lia].
    + cbn [b_node b_cur b_merged b_tbl]. repeat split; intros n o' H; right; auto.
Qed.

Lemma upd_tbl p m (b : bucket V) : b_tbl (upd p m b) = b_tbl b.
Proof. destruct p; reflexivity. Qed.
Lemma upd_next p m (b : bucket V) : b_next (upd p m b) = b_next b.
Proof. destruct p; reflexivity. Qed.

Lemma named_upd b p m : Named b -> sub_tbl b m -> Named (upd p m b).
Proof.
  intros (Hok & H1 & H2 & H3) Hm.
  split; [unfold tbl_ok; rewrite upd_tbl, upd_next; exact Hok|].
  unfold sub_tbl. rewrite upd_tbl. destruct p; cbn [upd b_node b_cur b_merged]; repeat split; assumption.
Qed.

Lemma sub_tbl_put b n o m : sub_tbl b m -> In (n, o) (b_tbl b) -> sub_tbl b (o_put n o m).
Proof.
  intros Hm Hin x o' H. destruct (Z.eq_dec x n) as [->|Hx].
  - rewrite get_put_same in H. injection H as <-. exact Hin.
  - rewrite get_put_other in H by exact Hx. exact (Hm _ _ H).
Qed.
Lemma sub_tbl_del b n m : sub_tbl b m -> sub_tbl b (o_del n m).
Proof.
  intros Hm x o' H. destruct (Z.eq_dec x n) as [->|Hx].
  - rewrite get_del_same in H. discriminate.
  - rewrite get_del_other in H by exact Hx. exact (Hm _ _ H).
Qed.

(* one answered request of a well-named program: the bucket stays named, the table only grows,
   and what the program knows afterwards is in the table *)
Lemma wn_answered {A} Q K b tr rq (k : resp V -> Store.prog V A) ok rs :
  answered oeq plan b tr rq ok rs -> wn Q K (Do rq k) -> Named b -> incl K (b_tbl b) ->
  let b1 := if ok then fst (exec_req oeq rq b) else b in
  Named b1 /\ incl (b_tbl b) (b_tbl b1) /\ exists K1, wn Q K1 (k rs) /\ incl K1 (b_tbl b1).
Proof.
  intros Ha W HN HK. apply wn_inv in W. cbv zeta.
  destruct ok; [destruct Ha as [-> _]|destruct Ha as [Hh Hrs]].
  (* answered with a fault: nothing changes, and [wn] covers every response to a storage request *)
  2:{ split; [exact HN|]. split; [apply incl_refl|]. exists K. split; [|exact HK].
      destruct rq; try discriminate; try apply W. specialize (W rs). destruct Hrs as [[_ ->]|[_ ->]]; exact W. }
  destruct rq as [pf|pf n|pf n o|pf n|o]; cbn [exec_req fst snd].
  - split; [exact HN|]. split; [apply incl_refl|]. exists K. split; [apply W|exact HK].
  - split; [exact HN|]. split; [apply incl_refl|]. eexists. split; [apply W|].
    destruct (o_get n (sel pf b)) as [o|] eqn:G; [|exact HK].
    intros x [<-|Hx]; [exact (named_sel b pf HN _ _ G)|apply HK, Hx].
  - destruct W as [Hin Wk].
    split; [apply named_upd; [exact HN|]; apply sub_tbl_put; [exact (named_sel b pf HN)|apply HK, Hin]|].
    rewrite upd_tbl. split; [apply incl_refl|]. exists K. split; [apply Wk|exact HK].
  - split; [apply named_upd; [exact HN|]; apply sub_tbl_del; exact (named_sel b pf HN)|].
    rewrite upd_tbl. split; [apply incl_refl|]. exists K. split; [apply W|exact HK].
  - pose proof (intern_named o b HN) as I. destruct (intern oeq o b) as [b2 n]. destruct I as (N1 & In1 & Sub1).
    split; [exact N1|]. split; [exact Sub1|]. exists ((n, o) :: K). split; [apply W|].
    intros x [<-|Hx]; [exact In1|apply Sub1, HK, Hx].
Qed.

Theorem exec_wn {A} muts b (p : Store.prog V A) tr b' r tr' muts' :
  exec muts b p tr b' r tr' muts' ->
  forall Q K, wn Q K p -> Named b -> (forall x, In x K -> In x (b_tbl b)) ->
  Named b' /\ (forall x, In x (b_tbl b) -> In x (b_tbl b')) /\
  (forall a, r = Done a -> exists K', (forall x, In x K' -> In x (b_tbl b')) /\ Q K' a).
Proof.
  intros X Q K W HN HK. destruct (exec_reaches _ _ _ X) as (_ & p' & R & St).
  apply (reaches_inv oeq plan crash (fun b1 _ p1 => Named b1 /\ incl (b_tbl b) (b_tbl b1) /\
                                       exists K1, wn Q K1 p1 /\ incl K1 (b_tbl b1))) in R.
  - destruct R as (N' & Sub & K' & W' & HK'). split; [exact N'|]. split; [exact Sub|].
    intros a ->. cbn in St. subst p'. exists K'. split; [exact HK'|exact (wn_inv _ _ _ W')].
  - intros b1 tr1 rq k ok rs Ha (N1 & Sub & K1 & W1 & HK1).
    destruct (wn_answered Q K1 b1 tr1 rq k ok rs Ha W1 N1 HK1) as (N2 & Sub2 & HK2).
    split; [exact N2|]. split; [exact (incl_tran Sub Sub2)|exact HK2].
  - split; [exact HN|]. split; [apply incl_refl|]. exists K. split; [exact W|exact HK].
Qed.

End Named.

Section Programs.
Context {V : Type}.
Variable c : cfg (V := V).
Notation kn := (list (name * obj V)).

(* what a handle knows: the version objects it merged, under their names *)
Definition mk (K : kn) (m : list (name * vobj)) : Prop := forall k v, In (k, v) m -> In (k, @OVer V v) K.

Lemma mk_incl K K' m : incl K K' -> mk K m -> mk K' m.
Proof. intros Hi Hm k v H. apply Hi. exact (Hm k v H). Qed.

Lemma mk_merged_add K key root m : mk K m -> In (key, @OVer V root) K -> mk K (merged_add key root m).
Proof.
  intros Hm Hin k v H. apply merged_add_in in H. destruct H as [E|H]; [injection E as -> ->; exact Hin|exact (Hm _ _ H)].
Qed.

(* sequencing, remembering that the knowledge has grown *)
Lemma wn_bind_incl {A B} (Q1 : kn -> A -> Prop) (Q2 : kn -> B -> Prop) K p (f : A -> Store.prog V B) :
  wn Q1 K p -> (forall K' a, incl K K' -> Q1 K' a -> wn Q2 K' (f a)) -> wn Q2 K (bind p f).
Proof. intros H Hf. eapply wn_bind; [apply wn_incl, H; apply incl_refl|]. intros K' a [Hi Hq]. exact (Hf K' a Hi Hq). Qed.

(* a program that does not PUT needs no knowledge; what it learns is not relied on *)
Lemma wn_bind_nm {A B} (Q2 : kn -> B -> Prop) K (p : Store.prog V A) (f : A -> Store.prog V B) :
  no_mut p -> (forall K' a, incl K K' -> wn Q2 K' (f a)) -> wn Q2 K (bind p f).
Proof.
  intros H Hf. eapply wn_bind_incl; [apply (no_put_wn p (no_mut_no_put p H) K)|]. intros K' a Hi _. exact (Hf K' a Hi).
Qed.

Lemma load_root_any_wn ps n K :
  wn (fun K' r => forall v, r = Some v -> In (n, @OVer V v) K') K (load_root_any ps n).
Proof.
  revert K. induction ps as [|p ps IH]; intros K; cbn [load_root_any].
  - constructor. discriminate.
  - constructor. intros rs. destruct rs as [| |o| | |]; try constructor; [|apply IH].
    destruct o as [t|v]; constructor. intros v0 E. injection E as <-. left. reflexivity.
Qed.

Lemma merge_loop_wn ps skip names : forall acc merged K, mk K merged ->
  wn (fun K' r => mk K' (snd r)) K (merge_loop c ps skip names acc merged).
Proof.
  induction names as [|key rest IH]; intros acc merged K Hm; [constructor; exact Hm|]. rewrite merge_loop_cons.
  eapply wn_bind_incl; [apply load_root_any_wn|]. intros K1 ro I1 Hro.
  pose proof (mk_incl _ _ _ I1 Hm) as Hm1.
  destruct ro as [root|]; [|destruct skip; [apply IH, Hm1|constructor]].
  apply wn_bind_nm; [apply load_tree_nm|]. intros K2 lt I2.
  pose proof (mk_incl _ _ _ I2 Hm1) as Hm2.
  assert (Hadd : forall K3, incl K2 K3 -> mk K3 (merged_add key root merged)).
  { intros K3 I3. apply mk_merged_add; [exact (mk_incl _ _ _ I3 Hm2)|apply I3, I2, Hro; reflexivity]. }
  destruct lt as [graft| |e]; [|destruct skip; [apply IH, Hm2|constructor]|constructor].
  destruct acc as [a|]; [|apply IH, Hadd, incl_refl].
  apply if_both; [constructor|].
  apply wn_bind_nm; [apply clone_acc_nm|]. intros K3 cl I3.
  apply if_both; [constructor|]. apply if_both; [apply IH, (mk_incl _ _ _ I3 Hm2)|].
  apply if_both; [constructor|].
  apply wn_bind_nm; [apply reload_graft_nm|]. intros K4 ok I4.
  apply if_both; [constructor|]. destruct (merge_into _ _ _ _); [|constructor].
  apply IH, Hadd. intros x Hx. apply I4, I3, Hx.
Qed.

Lemma move_merged_wn n l : forall K, mk K l -> wn (fun _ _ => True) K (move_merged n l).
Proof.
  induction l as [|[key v] l IH]; intros K Hm; cbn [move_merged]; [constructor; exact I|].
  assert (Hl : mk K l) by (intros k0 v0 H; apply Hm; right; exact H).
  apply if_both; [apply IH; exact Hl|].
  constructor; [apply Hm; left; reflexivity|].
  intros rs. destruct rs; try (constructor; exact I).
  constructor. intros rs2. destruct rs2; try (constructor; exact I). apply IH; exact Hl.
Qed.

Lemma parents_of_known order (h : handle (V := V)) v K : mk K (h_merged h) -> mk K (parents_of order h v).
Proof. intros Hm k v0 Hin. exact (Hm k v0 (parents_of_incl order h v _ Hin)). Qed.

Lemma commit_wn order h K : mk K (h_merged h) ->
  wn (fun K' r => incl K K' /\ mk K' (h_merged (fst r))) K (commit order h).
Proof.
  intros Hm. apply wn_incl; [apply incl_refl|]. rewrite commit_eq.
  apply if_both; [constructor; exact Hm|].
  apply if_both; [constructor; exact Hm|].
  eapply wn_bind_incl with (Q1 := fun _ _ => True).
  { unfold flush_tree. apply if_both; [|constructor; exact I].
    constructor. intros n. constructor; [left; reflexivity|]. intros rs. destruct rs; constructor; exact I. }
  intros K1 [link stored] I1 _. pose proof (mk_incl _ _ _ I1 Hm) as Hm1.
  apply if_both; [constructor; exact Hm1|].
  unfold publish. constructor. intros n. constructor; [left; reflexivity|].
  assert (Hm2 : mk ((n, OVer (version_of h link)) :: K1) (h_merged h)) by (intros k v H; right; exact (Hm1 k v H)).
  intros rs. destruct rs; try (constructor; exact Hm2).
  eapply wn_bind_incl; [apply move_merged_wn, parents_of_known, Hm2|].
  intros K2 u I2 _. constructor. cbn [fst committed h_merged].
  intros k v [E|[]]. injection E as <- <-. apply I2. left. reflexivity.
Qed.

Theorem open_wn ro only when order corder K :
  wn (fun K' h => incl K K' /\ mk K' (h_merged h)) K (open c ro only when order corder).
Proof.
  apply wn_incl; [apply incl_refl|]. unfold open.
  apply if_both; [constructor|].
  eapply wn_bind with (Q1 := fun _ _ => True).
  { destruct only; [constructor; exact I|]. constructor. intros rs. destruct rs; constructor; exact I. }
  intros K1 [[names ps] skip] _.
  eapply wn_bind; [apply merge_loop_wn; intros k v []|].
  intros K2 [acc merged] Hm2. cbn [snd] in Hm2.
  destruct ro; [constructor; destruct acc; exact Hm2|].
  eapply wn_bind; [apply commit_wn; destruct acc; exact Hm2|].
  intros K3 [h' r] [_ Hm3]. cbn [fst] in Hm3. destruct r; constructor. exact Hm3.
Qed.

End Programs.

Section NoPut.
Context {V : Type}.
Variable c : cfg (V := V).

Lemma del_all_np p l : no_put (del_all (V := V) p l).
Proof.
  induction l as [|n l IH]; cbn [del_all]; [constructor|].
  constructor; [reflexivity|]. intros x. destruct x; try constructor. exact IH.
Qed.

Theorem delete_historic_np h before : no_put (delete_historic c h before).
Proof.
  (* no step needs the fuel, a numeral of 1000 constructors that every step would carry *)
  unfold delete_historic. generalize 1000%nat. intros fuel. apply if_both; [constructor|].
  apply no_put_bind; [apply no_mut_no_put, load_graph_nm|]. intros g.
  apply no_put_bind.
  { apply no_mut_no_put, no_mut_bind; [apply cand_blocks_nm|]. intros b0. apply keep_reachable_nm. }
  intros blocks. apply no_put_bind; [apply del_all_np|]. intros _.
  apply no_put_bind; [apply del_all_np|]. intros _.
  destruct (h_source h) as [s|]; [|constructor].
  apply if_both; [|constructor].
  constructor; [reflexivity|]. intros x. destruct x as [| |o| | |]; try constructor.
  destruct o as [t|v]; try constructor. destruct (v_created v) as [cr|]; [|constructor].
  apply if_both; [|constructor].
  constructor; [reflexivity|]. intros x. destruct x; constructor.
Qed.

End NoPut.

Section Histories.
Context {V : Type}.
Variable oeq : obj V -> obj V -> bool.
Hypothesis oeq_eq : forall a b, oeq a b = true -> a = b.

(* buckets reachable by running well-named programs, each under its own fault plan and
   crash point, each knowing only name/content pairs that are in the table *)
Inductive reach : bucket V -> bucket V -> Prop :=
| reach_refl b : reach b b
| reach_step b b1 b2 A (p : Store.prog V A) Q K plan crash muts tr r tr' muts' :
    reach b b1 -> wn Q K p -> (forall x, In x K -> In x (b_tbl b1)) ->
    @exec V oeq plan crash A muts b1 p tr b2 r tr' muts' -> reach b b2.

Theorem reach_named b b' : reach b b' -> Named b ->
  Named b' /\ forall x, In x (b_tbl b) -> In x (b_tbl b').
Proof.
  induction 1 as [b|b b1 b2 A p Q K plan crash muts tr r tr' muts' R IH W HK X]; intros HN.
  - split; auto.
  - destruct (IH HN) as (N1 & S1).
    destruct (exec_wn oeq oeq_eq plan crash _ _ _ _ _ _ _ _ X Q K W N1 HK) as (N2 & S2 & _).
    split; [exact N2|]. intros x Hx. apply S2, S1, Hx.
Qed.

(* an object read under a name at any time is the object read under that name at any later
   time, under whichever prefix *)
Theorem name_immutable b b' p p' n o o' :
  Named b -> reach b b' ->
  o_get n (sel p b) = Some o -> o_get n (sel p' b') = Some o' -> o = o'.
Proof.
  intros HN R G G'. destruct (reach_named b b' R HN) as (N' & Sub).
  pose proof (named_sel b p HN _ _ G) as I1. apply Sub in I1.
  pose proof (named_sel b' p' N' _ _ G') as I2.
  destruct N' as (Hok & _). exact (tbl_functional b' n o o' Hok I1 I2).
Qed.

End Histories.
