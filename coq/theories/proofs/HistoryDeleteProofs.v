(* HistoryDeleteProofs.v — which node objects keepReachableNodes leaves for history deletion to delete
   (C09: "no retained version ever refers to a deleted object").  keepReachableNodes (fix 2e7ef2a) removes from
   the candidate nodes every node reachable from the vacuuming handle's own tree, from the
   versions of the history that stay, and from every version under current/.  Proved, for every
   plan of transport faults: the list it returns never contains the handle's own root node,
   nor the root node of any non-candidate version of the history graph, of any version under
   current/ (in the graph or not), or of a superseded version under merged/ that the cutoff retains;
   or it fails, before anything is deleted.  (One node per tree: see KvProto.v.) *)
From S3db Require Import Base Store KvProto.
From S3db.proofs Require Import ProtoProofs ExecProofs OpenProofs FaultProofs.
Import ListNotations.
Open Scope Z_scope.

Section Keep.
Context {V : Type}.
Variable c : cfg (V := V).
Variable oeq : obj V -> obj V -> bool.
Variable plan : list fault.
Hypothesis err_only : forall tr (rq : req V), plan_outcome plan tr rq <> OGone.

Notation spec := (@spec V oeq plan).
Notation wp := (@wp V oeq (fun o => o <> OGone) _).

(* whatever loading a root node answers, the bucket is as before *)
Lemma load_tree_reads b v : wp (load_tree c v) (reads True b (fun _ => True)) b.
Proof.
  unfold load_tree. destruct (negb (cfg_mode_ok c (v_mode v))); [apply reads_ret; exact I|].
  destruct (v_link v); [|apply reads_ret; exact I].
  apply reads_get; auto; [destruct (o_get n (sel PNode b)) as [[t|v0]|]|intros _]; apply reads_ret; exact I.
Qed.

Definition link_in (v : vobj) (keep : list name) : Prop := forall x, v_link v = Some x -> In x keep.

Definition retained_by_cutoff (before : time) (v : vobj) : bool :=
  negb (match v_created v with Some cr => cr <? before | None => false end).

(* the version whose nodes are kept for the name n, if any *)
Definition kept_version (b : bucket V) (g : list (name * vobj)) (cs cur mrg : list name) (before : time)
           (n : name) : option vobj :=
  let from_merged :=
    if mem n mrg && negb (mem n cs) then
      match ver_in b [PMerged] n with
      | Some v => if retained_by_cutoff before v then Some v else None
      | None => None
      end
    else None in
  match (match find (fun kv => fst kv =? n) g with
         | Some (_, v) => if mem n cs then None else Some v
         | None => None
         end) with
  | Some v => Some v
  | None => if mem n cur then match ver_in b [PCur] n with Some v => Some v | None => from_merged end
            else from_merged
  end.

(* [pick_kept] goes on with the version that [kept_version] finds in the bucket *)
Lemma pick_kept_wp {A} b g cs cur mrg before n (K : vobj -> Store.prog V A) R (Q : option vobj -> A -> Prop) :
  (forall v, wp (K v) (reads True b (Q (Some v))) b) -> wp R (reads True b (Q None)) b ->
  wp (pick_kept g cs cur mrg before n K R) (reads True b (Q (kept_version b g cs cur mrg before n))) b.
Proof.
  intros HK HR. unfold kept_version.
  set (fm := if mem n mrg && negb (mem n cs) then _ else None).
  assert (M : wp (pick_merged cs mrg before n K R) (reads True b (Q fm)) b).
  { unfold pick_merged, fm. destruct (mem n mrg && negb (mem n cs)); [|exact HR].
    eapply reads_bind; [apply load_root_wp; auto|]. intros ro ->.
    destruct (ver_in b [PMerged] n) as [v|]; [|exact HR]. unfold retained_by_cutoff.
    destruct (match v_created v with Some cr => cr <? before | None => false end); cbn [negb]; auto. }
  unfold pick_kept. destruct (match find _ g with Some _ => _ | None => _ end) as [v|]; [apply HK|].
  destruct (mem n cur); [|exact M]. eapply reads_bind; [apply load_root_wp; auto|]. intros ro ->.
  destruct (ver_in b [PCur] n) as [v|]; auto.
Qed.

Theorem remaining_links_wp b g cs cur mrg before names : forall acc,
  wp (remaining_links c g cs cur mrg before names acc)
     (reads True b (fun keep => incl acc keep /\
          forall n, In n names -> forall v, kept_version b g cs cur mrg before n = Some v -> link_in v keep)) b.
Proof.
  induction names as [|n rest IH]; intros acc.
  - apply reads_ret. split; [apply incl_refl|]. intros n [].
  - rewrite remaining_links_cons.
    (* [vv] is the version kept for [n]: its link is in the list that the rest goes on with *)
    eapply reads_conseq; [|apply (pick_kept_wp b g cs cur mrg before n _ _ (fun vv keep =>
        incl acc keep /\ (forall v, vv = Some v -> link_in v keep) /\
        forall n0, In n0 rest -> forall v0, kept_version b g cs cur mrg before n0 = Some v0 -> link_in v0 keep))].
    + intros keep (Hi & Hv & Hr). split; [exact Hi|].
      intros n0 [<-|Hin] v0 E; [exact (Hv v0 E)|exact (Hr n0 Hin v0 E)].
    + intros v. eapply reads_bind; [apply load_tree_reads|].
      intros l _. destruct l as [t| |e]; try (apply reads_fail; exact I).
      eapply reads_conseq; [|apply IH]. intros keep [Hi Hr]. split; [|split; [|exact Hr]].
      * intros x Hx. apply Hi. destruct (v_link v); [right|]; exact Hx.
      * intros v0 E x Hx. injection E as <-. apply Hi. rewrite Hx. left. reflexivity.
    + eapply reads_conseq; [|apply IH]. intros keep [Hi Hr]. split; [exact Hi|]. split; [discriminate|exact Hr].
Qed.

(* what keepReachableNodes lets through: never the root node of this handle's own tree, of a
   version of the history that stays, of ANY version under current/ (also a deletable one that
   was never retired), or of a superseded version under merged/ that the cutoff retains *)
Theorem keep_reachable_spec b (h : handle (V := V)) g cs before blocks :
  spec b (keep_reachable c h g cs before blocks)
       (fun res =>
          forall x, In x res ->
            In x blocks /\
            h_link h <> Some x /\
            (forall n v, kept_version b g cs (o_names (b_cur b)) (o_names (b_merged b)) before n = Some v ->
                         (In n (map fst g) \/ o_get n (b_cur b) <> None \/ o_get n (b_merged b) <> None) ->
                         v_link v <> Some x)).
Proof.
  apply (spec_of_wp oeq plan err_only). unfold keep_reachable.
  destruct blocks as [|b0 blocks]; [apply reads_ret; intros x []|].
  apply reads_list; auto; [|apply reads_fail]. cbn [sel].
  apply reads_list; auto; [|apply reads_fail]. cbn [sel].
  eapply reads_bind; [apply remaining_links_wp|].
  intros keep [Hi Hr]. apply reads_ret. intros x Hx. apply filter_In in Hx. destruct Hx as [Hx Hk].
  apply negb_true_iff in Hk.
  assert (Nk : ~ In x keep) by (intros H; apply mem_in in H; congruence).
  split; [exact Hx|]. split.
  - intros E. apply Nk. apply Hi. rewrite E. left. reflexivity.
  - intros n v Hv Hwhere E. apply Nk.
    assert (Hn : In n (fold_right insert_sorted [] (map fst g ++ o_names (b_cur b) ++ o_names (b_merged b)))).
    { apply in_sorted_names. apply in_or_app. destruct Hwhere as [H|[H|H]]; [left; exact H|right|right];
        apply in_or_app; [left|right]; apply in_o_names; exact H. }
    exact (Hr _ Hn v Hv x E).
Qed.

Lemma ver_in_listed (b : bucket V) p n v : ver_in b [p] n = Some v -> mem n (o_names (sel p b)) = true.
Proof. intros Hv. apply mem_o_names. cbn [ver_in] in Hv. destruct (o_get n (sel p b)); discriminate. Qed.

End Keep.
