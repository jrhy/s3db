(* CryptoProofs.v — properties of the encryption framing, relative to the primitives:
   H_nonce (the digest has 24 bytes), H_box (secretbox.Open inverts secretbox.Seal).
   For every key and every message of every length:  decrypt (encrypt m) = m;
   encrypt is a function of (key, message) only, so equal plaintext gives equal ciphertext;
   a legacy box is read back IF secretbox.Open rejects it — which golang.org/x/crypto does not
   do for boxes longer than 32 bytes (finding F-C18-1: the MAC of the legacy format verifies
   under secretbox.Open, which then decrypts with the standard keystream). *)
From S3db Require Import Base Crypto.
Import ListNotations.

Section CryptoProofs.
Variable nonce_of : bytes -> bytes.
Variable seal : bytes -> bytes -> bytes -> bytes.
Variable open_new : bytes -> bytes -> bytes -> option bytes.
Variable open_old : bytes -> bytes -> bytes -> option bytes.
Hypothesis H_nonce : forall x, length (nonce_of x) = nonce_len.
Hypothesis H_box : forall k n m, open_new k n (seal k n m) = Some m.

Notation enc := (encrypt nonce_of seal).
Notation dec := (decrypt open_new open_old).

(* decrypt on a nonce followed by a box: the new open first, then the legacy one *)
Lemma decrypt_framed key n box : length n = nonce_len ->
  dec key (n ++ box) = match open_new key n box with Some m => Some m | None => open_old key n box end.
Proof.
  intros Ln. unfold decrypt. rewrite app_length, Ln.
  destruct (Nat.ltb_spec (nonce_len + length box) nonce_len); [lia|]. cbv zeta.
  rewrite firstn_app, skipn_app, Ln, Nat.sub_diag, <- Ln, firstn_all, skipn_all. cbn [firstn skipn app].
  rewrite app_nil_r. reflexivity.
Qed.

Theorem decrypt_encrypt key msg : dec key (enc key msg) = Some msg.
Proof.
  unfold encrypt. rewrite decrypt_framed, H_box; [reflexivity|].
  rewrite firstn_length, H_nonce. apply Nat.min_id.
Qed.

(* deduplication: the ciphertext depends on key and message only *)
Theorem encrypt_deterministic key m1 m2 : m1 = m2 -> enc key m1 = enc key m2.
Proof. intros ->. reflexivity. Qed.

(* legacy data: readable exactly when the new primitive does not claim it first *)
Theorem legacy_box_readable key n box m : length n = nonce_len ->
  open_old key n box = Some m ->
  open_new key n box = None \/ open_new key n box = Some m ->
  dec key (n ++ box) = Some m.
Proof. intros Ln Ho Hn. rewrite (decrypt_framed key n box Ln). destruct Hn as [-> | ->]; [exact Ho|reflexivity]. Qed.

Theorem legacy_box_misread_when_new_open_accepts key n box m m' : length n = nonce_len ->
  open_old key n box = Some m -> open_new key n box = Some m' -> dec key (n ++ box) = Some m'.
Proof. intros Ln Ho Hn. rewrite (decrypt_framed key n box Ln), Hn. reflexivity. Qed.
End CryptoProofs.

