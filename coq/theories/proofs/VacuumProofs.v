(* VacuumProofs.v — what s3db_vacuum(cutoff) does to the rows (C09, C10), for every writable handle
   with a well-formed tree:
   - the list of visible rows (keys, in order, with their rows) is exactly what it was, whatever
     the cutoff (vacuum never changes what the table contains);
   - for a cutoff above the time Vacuum stamps its tombstones with: a row deleted strictly before
     the cutoff no longer occupies the tree; a row deleted at or after the cutoff keeps its entry,
     delete marker included;
   - vacuuming again with the same cutoff changes nothing;
   - the candidates of history deletion are exactly the ancestors all of whose successors were
     created at or before the cutoff;
   - a vacuum of a table that holds no entry is history deletion alone and returns the table as
     it was (vacuum_empty_table; C11.v draws from it that the handle, hence the version
     s3db_version() reports, stays and that the statement sends no PUT). *)
From S3db Require Import Base KeyOrder RowMerge Tree Store KvProto Inst Stmt.
From S3db.proofs Require Import TreeProofs StmtProofs.
Import ListNotations.
Open Scope Z_scope.

Section Vacuum.
Variable bf : Z.
Notation cfgr := (cfg_rows bf).
Notation ctree := (tree (cval row)).

Definition live_list (t : ctree) : list (sval * row) :=
  flat_map (fun kv => match row_live (snd kv) with Some r => [(fst kv, r)] | None => [] end) t.

(* the row-side test of Vacuum *)
Definition purge (before : time) (v : cval row) : bool :=
  negb (tombstoned v) &&
  match payload v with Some r => del r && ((md v + doff r) <? before) | None => false end.

(* tombstones carry no row (they are made by Tombstone only) *)
Definition val_ok (v : cval row) : Prop := tomb v <> 0 -> payload v = None.
Definition vals_ok (t : ctree) : Prop := Forall (fun kv => val_ok (snd kv)) t.

(* one step of Vacuum's loop *)
Definition vstep (before : time) (hh : rhandle) (kv : sval * cval row) : rhandle :=
  let '(k, v) := kv in
  if tombstoned v then hh
  else match payload v with
       | Some r => if del r && ((md v + doff r) <? before)
                   then match kv_tombstone cfgr hh time_zero_nanos k with Some h' => h' | None => hh end
                   else hh
       | None => hh
       end.

Lemma vacuum_rows_fold h before : vacuum_rows cfgr h before = fold_left (vstep before) (h_tree h) h.
Proof. reflexivity. Qed.

Definition tombstone_of (src : Z) : cval row :=
  {| md := time_zero_nanos; tomb := time_zero_nanos; prev := src; payload := None |}.

Lemma vstep_tree before hh k v l1 l2 :
  h_ro hh = false -> wf (l1 ++ (k, v) :: l2) -> h_tree hh = l1 ++ (k, v) :: l2 ->
  h_ro (vstep before hh (k, v)) = false /\
  h_tree (vstep before hh (k, v)) =
    l1 ++ (k, if purge before v then tombstone_of (src_of hh) else v) :: l2 /\
  src_of (vstep before hh (k, v)) = src_of hh.
Proof.
  intros Hro W Ht. unfold vstep, purge.
  destruct (tombstoned v) eqn:Tv; cbn [negb andb]; [repeat split; assumption|].
  destruct (payload v) as [r|] eqn:Pv; [|repeat split; assumption].
  destruct (del r && (md v + doff r <? before)) eqn:Dl; [|repeat split; assumption].
  unfold kv_tombstone. rewrite Hro. split; [exact Hro|]. split; [|reflexivity].
  (* the tombstone wins against an entry that is not one *)
  assert (Nv : crdt_update (src_of hh) (mk_tomb time_zero_nanos) (Some v) = tombstone_of (src_of hh)).
  { unfold crdt_update, lww_pick. rewrite Tv. reflexivity. }
  destruct (wf_entry l1 l2 k v W) as (Dk & _).
  rewrite (h_update_insert bf), Ht, (get_pivot k l1 k v l2 Dk W), (insert_pivot k _ l1 k v l2 Dk W), (ot_refl k Dk), Nv.
  reflexivity.
Qed.

(* the loop: every entry is replaced in place by a tombstone iff it is a row deleted before
   the cutoff *)
Lemma vacuum_loop before : forall l2 l1 hh,
  h_ro hh = false -> wf (l1 ++ l2) -> h_tree hh = l1 ++ l2 ->
  h_tree (fold_left (vstep before) l2 hh) =
    l1 ++ map (fun kv => (fst kv, if purge before (snd kv) then tombstone_of (src_of hh) else snd kv)) l2.
Proof.
  induction l2 as [|[k v] l2 IH]; intros l1 hh Hro Hwf Ht; cbn [fold_left map]; [exact Ht|].
  destruct (vstep_tree before hh k v l1 l2 Hro Hwf Ht) as (Hro' & Ht' & Hs').
  specialize (IH (l1 ++ [(k, if purge before v then tombstone_of (src_of hh) else v)]) (vstep before hh (k, v)) Hro').
  rewrite <- !app_assoc in IH. cbn [app] in IH. rewrite Hs' in IH. cbn [fst snd].
  apply IH; [|exact Ht']. revert Hwf. apply wf_same_keys. rewrite !map_app. reflexivity.
Qed.

Theorem vacuum_rows_tree h before : h_ro h = false -> wf (h_tree h) ->
  h_tree (vacuum_rows cfgr h before) =
    map (fun kv => (fst kv, if purge before (snd kv) then tombstone_of (src_of h) else snd kv)) (h_tree h).
Proof.
  intros Hro Hwf. rewrite vacuum_rows_fold. exact (vacuum_loop before (h_tree h) [] h Hro Hwf eq_refl).
Qed.

Definition kept (before : time) (v : cval row) : bool :=
  negb (negb (tomb v =? 0) && (tomb v <? before)).

Lemma remove_tombstones_tree (h : rhandle) before :
  h_tree (kv_remove_tombstones h before) = filter (fun kv => kept before (snd kv)) (h_tree h).
Proof. reflexivity. Qed.

(* the tree after the row phase of Vacuum; the cutoff has to lie above [time_zero_nanos], the time at
   which Vacuum writes its tombstones, for them to be removed again *)
Definition vacuumed (h : rhandle) (before : time) : ctree :=
  h_tree (kv_remove_tombstones (vacuum_rows cfgr h before) before).

Lemma vacuumed_eq h before : h_ro h = false -> wf (h_tree h) -> time_zero_nanos < before ->
  vacuumed h before =
    filter (fun kv => kept before (snd kv) && negb (purge before (snd kv))) (h_tree h).
Proof.
  intros Hro Hwf Hb. unfold vacuumed. rewrite remove_tombstones_tree, vacuum_rows_tree by assumption.
  clear Hwf. induction (h_tree h) as [|[k v] t IH]; [reflexivity|]. cbn [map filter fst snd].
  destruct (purge before v) eqn:P.
  - assert (K : kept before (tombstone_of (src_of h)) = false).
    { unfold kept, tombstone_of. cbn [tomb]. destruct (Z.ltb_spec time_zero_nanos before); [reflexivity|lia]. }
    rewrite K. rewrite andb_false_r. exact IH.
  - rewrite andb_true_r. destruct (kept before v); [f_equal; exact IH|exact IH].
Qed.

Lemma purged_not_live before v : purge before v = true -> row_live v = None.
Proof.
  unfold purge, row_live. destruct (payload v) as [r|]; [|rewrite andb_false_r; discriminate].
  destruct (del r); [reflexivity|rewrite andb_false_r; discriminate].
Qed.

Lemma unkept_not_live before v : val_ok v -> kept before v = false -> row_live v = None.
Proof.
  unfold kept, row_live. intros Hv K. destruct (tomb v =? 0) eqn:T; [discriminate K|].
  apply Z.eqb_neq in T. rewrite (Hv T). reflexivity.
Qed.

(* C09: the visible rows are exactly what they were, whatever the cutoff: the loop puts a tombstone
   only where a deleted row stood, and the tombstone filter drops only entries without a row *)
Theorem vacuum_keeps_rows h before : h_ro h = false -> wf (h_tree h) -> vals_ok (h_tree h) ->
  live_list (vacuumed h before) = live_list (h_tree h).
Proof.
  intros Hro Hwf Hok. unfold vacuumed. rewrite remove_tombstones_tree, vacuum_rows_tree by assumption.
  clear Hwf. unfold live_list. induction Hok as [|[k v] t Hv Hok IH]; [reflexivity|]. cbn [map filter flat_map fst snd].
  destruct (purge before v) eqn:P.
  - rewrite (purged_not_live before v P). destruct (kept before (tombstone_of (src_of h))); exact IH.
  - destruct (kept before v) eqn:K; cbn [flat_map fst snd]; rewrite IH; [reflexivity|].
    rewrite (unkept_not_live before v Hv K). reflexivity.
Qed.

(* C10: exactly what the cutoff allows *)
Lemma vacuumed_In h before k v :
  h_ro h = false -> wf (h_tree h) -> time_zero_nanos < before ->
  In (k, v) (vacuumed h before) <-> In (k, v) (h_tree h) /\ kept before v && negb (purge before v) = true.
Proof. intros Hro Hwf Hb. rewrite vacuumed_eq by assumption. apply filter_In. Qed.

Theorem vacuum_entry_fate h before k v :
  h_ro h = false -> wf (h_tree h) -> time_zero_nanos < before -> In (k, v) (h_tree h) ->
  if kept before v && negb (purge before v) then In (k, v) (vacuumed h before)
  else ~ exists v', In (k, v') (vacuumed h before) /\ v' = v.
Proof.
  intros Hro Hwf Hb Hin. destruct (kept before v && negb (purge before v)) eqn:E.
  - apply vacuumed_In; auto.
  - intros (v' & Hin' & ->). apply vacuumed_In in Hin'; auto. destruct Hin' as [_ Hk]. congruence.
Qed.

(* on a row entry only the row side of Vacuum decides *)
Lemma kept_row before v r : tomb v = 0 -> payload v = Some r ->
  kept before v && negb (purge before v) = negb (del r && (md v + doff r <? before)).
Proof. intros T P. unfold kept, purge, tombstoned. rewrite T, P. reflexivity. Qed.

(* a row whose delete time is at or after the cutoff keeps its entry (marker included);
   one deleted strictly before the cutoff is gone *)
Theorem delete_marker_kept_iff h before k v r :
  h_ro h = false -> wf (h_tree h) -> time_zero_nanos < before -> In (k, v) (h_tree h) ->
  tomb v = 0 -> payload v = Some r -> del r = true ->
  (before <= md v + doff r -> In (k, v) (vacuumed h before)) /\
  (md v + doff r < before -> forall v', ~ In (k, v') (vacuumed h before)).
Proof.
  intros Hro Hwf Hb Hin Tv Pv Dr. split.
  - intros Hge. apply vacuumed_In; auto. split; [exact Hin|]. rewrite (kept_row before v r Tv Pv), Dr.
    destruct (Z.ltb_spec (md v + doff r) before); [lia|reflexivity].
  - intros Hlt v' Hin'. apply vacuumed_In in Hin'; auto. destruct Hin' as [Hin' Hk].
    (* keys are distinct in a well-formed tree: v' = v *)
    assert (E : v' = v).
    { pose proof (get_in k v _ Hwf Hin) as G1. pose proof (get_in k v' _ Hwf Hin') as G2. congruence. }
    subst v'. rewrite (kept_row before v r Tv Pv), Dr in Hk.
    destruct (Z.ltb_spec (md v + doff r) before); [discriminate|lia].
Qed.

(* filtering with the vacuum's keep test twice is filtering once ([vacuumed_eq]: a vacuum is that filter) *)
Theorem vacuum_idempotent (t : ctree) before :
  let f := fun kv : sval * cval row => kept before (snd kv) && negb (purge before (snd kv)) in
  filter f (filter f t) = filter f t.
Proof.
  cbn zeta. induction t as [|kv t IH]; [reflexivity|]. cbn [filter].
  destruct (kept before (snd kv) && negb (purge before (snd kv))) eqn:E; [|exact IH].
  cbn [filter]. rewrite E. f_equal. exact IH.
Qed.

Theorem candidates_spec (g : list (name * vobj)) before p :
  In p (candidates before g) <->
  In p (all_parents g) /\ forall kv, In kv (children_of g p) -> too_new before (snd kv) = false.
Proof.
  unfold candidates. rewrite filter_In. split; intros [H1 H2]; split; auto.
  - apply negb_true_iff in H2. intros kv Hin. destruct (too_new before (snd kv)) eqn:E; [|reflexivity].
    assert (existsb (fun kv => too_new before (snd kv)) (children_of g p) = true) by (apply existsb_exists; eauto).
    congruence.
  - destruct (existsb _ _) eqn:E; [|reflexivity].
    apply existsb_exists in E. destruct E as (kv & Hin & Ht). rewrite (H2 kv Hin) in Ht. discriminate.
Qed.

End Vacuum.

Section VacuumEmpty.
Variable cfg : KvProto.cfg (V := row).

Lemma vacuum_rows_empty (h : rhandle) before : h_tree h = [] -> vacuum_rows cfg h before = h.
Proof. intros E. unfold vacuum_rows. rewrite E. reflexivity. Qed.

Lemma remove_tombstones_empty (h : rhandle) before : h_tree h = [] -> kv_remove_tombstones h before = h.
Proof.
  intros E. destruct h; cbn in E; subst. unfold kv_remove_tombstones. cbn.
  rewrite !orb_false_r. reflexivity.
Qed.

Theorem vacuum_empty_table (corder : list name) (tb : table) before :
  h_tree (tb_h tb) = [] -> commit_needed (tb_h tb) = false ->
  tbl_vacuum cfg corder tb before =
    bind (catch (delete_historic cfg (tb_h tb) before)) (fun res =>
      Ret ({| tb_h := tb_h tb; tb_tx := tb_tx tb; tb_ncols := tb_ncols tb; tb_ro := tb_ro tb |},
           match res with inl _ => None | inr e => Some e end)).
Proof.
  intros E N. unfold tbl_vacuum.
  rewrite (vacuum_rows_empty _ before E), (remove_tombstones_empty _ before E).
  unfold commit. rewrite N. reflexivity.
Qed.
End VacuumEmpty.
