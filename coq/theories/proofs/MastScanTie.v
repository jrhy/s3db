(* MastScanTie.v — the node-level cursor feeds the SQL-level scan: on every tree that meets the
   invariant (every tree reached from the empty tree by Inserts and Deletes), the entries that
   Cursor + Min (no lower bound) or Cursor + Ceil(min) (a lower bound) + Get / Forward hand to
   VirtualTable.Next are exactly the sequence the list-level model of the ascending scan
   (Stmt.tbl_scan, proved against SQLite's semantics in ScanProofs) starts from. *)
From S3db Require Import Base KeyOrder RowMerge Stmt Mast.
From S3db.proofs Require Import TreeProofs MastLevelProofs MastCursorProofs MastNeProofs MastCeilProofs.
Import ListNotations.
Local Open Scope nat_scope.

Section Tie.
Variable bf : Z.
Variable P : sval -> Prop.
Notation V := (cval row).

(* what the cursor yields for an ascending scan with the window's lower bound *)
Definition cursor_sequence (m : mast V) (w : window) (steps : nat) : list (sval * V) :=
  let fuel := S (m_height m) in
  match w_min w with
  | Some k => c_walk_fwd steps fuel (c_ceil fuel k (mast_cursor m))
  | None => c_walk_fwd steps fuel (c_min fuel (mast_cursor m))
  end.

Theorem ascending_scan_over_a_multilevel_tree (m : mast V) (w : window) steps :
  MInv2 bf P m -> (forall k, w_min w = Some k -> D k) -> length (mast_flat m) < steps ->
  tbl_scan (mast_flat m) false w = scan_fwd (cursor_sequence m w steps) w (w_gt w).
Proof.
  intros [(Hw & Hp & Hl & Hb) Hn] Hk Hs. unfold tbl_scan, cursor_sequence. cbn [negb].
  pose proof (lvr_depth (klayer bf) _ _ Hl) as Hd.
  destruct (w_min w) as [k|]; f_equal; symmetry.
  - apply ceil_scan; [apply Hk; reflexivity|exact Hw|exact Hn|lia|exact Hs].
  - apply min_scan; [exact Hn|lia|exact Hs].
Qed.

End Tie.
