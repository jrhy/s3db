(* ConvergenceProofs.v — the tree-level convergence theorem for s3db rows: versions whose
   entries are SQL-reachable and pairwise compatible. *)
From S3db Require Import Base RowMerge Tree Inst.
From S3db.proofs Require Import RowMergeProofs TreeProofs MergeAllProofs EqbProofs.
Import ListNotations.
Open Scope Z_scope.

Section Rows.
Variable n : nat.
Variable S : cval row -> Prop.
Hypothesis S_inv : forall v, S v -> val_inv n v.
Hypothesis S_compat : forall a b, S a -> S b -> md a = md b -> a = b.

Definition merge_versions := merge_list merge_values (cval_eqb row_eqb).

(* any two folds over the same SET of versions (any order, any repetition) see the same rows *)
Theorem rows_converge acc gs acc' gs' :
  Forall (fun t => wf t /\ vals_in S t) (acc :: gs) ->
  Forall (fun t => wf t /\ vals_in S t) (acc' :: gs') ->
  (forall t, In t (acc :: gs) <-> In t (acc' :: gs')) ->
  exists t1 t2, merge_versions acc gs = Some t1 /\ merge_versions acc' gs' = Some t2 /\
                wf t1 /\ wf t2 /\ forall k, D k -> t_get k t1 = t_get k t2.
Proof.
  apply (merge_same_versions merge_values mv (cval_eqb row_eqb) S (mv_total n S S_inv) row_rank
           (mv_sel n S S_inv) (mv_min n S S_inv) (row_rank_compat S S_compat) cval_row_eqb_eq).
Qed.

End Rows.
