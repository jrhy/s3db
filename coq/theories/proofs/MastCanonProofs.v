(* MastCanonProofs.v — the layout of the node-level tree is a FUNCTION of its contents and its
   height: two trees that keep the level discipline, link no empty node and flatten to the same
   entries are the same tree, node for node.  (Equal contents therefore serialise to equal node
   objects — what content-addressed node names and their de-duplication rest on.  The statements are
   about nodes: an empty tree is held either as an empty root node or, after a Delete, as no root.) *)
From S3db Require Import Base KeyOrder Mast.
From S3db.proofs Require Import MastProofs MastLevelProofs MastCursorProofs.
Import ListNotations.
Local Open Scope nat_scope.

Section Canon.
Context {V : Type}.
Notation mt := (mt V).
Notation ml := (ml V).
Variable lay : sval -> nat.

(* a list splits in one way only into elements that miss Q and a rest that is empty or begins with
   one that meets it *)
Definition headed {A} (Q : A -> Prop) (b : list A) : Prop := match b with [] => True | x :: _ => Q x end.

Lemma split_unique {A} (Q : A -> Prop) (a a' b b' : list A) :
  Forall (fun y => ~ Q y) a -> Forall (fun y => ~ Q y) a' -> headed Q b -> headed Q b' ->
  a ++ b = a' ++ b' -> a = a' /\ b = b'.
Proof.
  revert a'. induction a as [|y a IH]; intros [|y' a'] Ha Ha' Hb Hb' E; cbn [app] in E.
  - auto.
  - subst b. exfalso. exact (Forall_inv Ha' Hb).
  - subst b'. exfalso. exact (Forall_inv Ha Hb').
  - injection E as -> E. destruct (IH a' (Forall_inv_tail Ha) (Forall_inv_tail Ha') Hb Hb' E) as [-> ->]. auto.
Qed.

(* without entries there is nothing but the empty node, which is never linked *)
Lemma ne_nil :
  (forall n : mt, ne n -> flat n = [] -> n = MEnd LNil) /\
  (forall l : ml, ne_l l -> flat_l l = [] -> l = LNil).
Proof.
  apply (@mt_ml_ind V).
  - intros l IHl Hn E. rewrite ne_MEnd in Hn. rewrite flat_MEnd in E. rewrite (IHl Hn E). reflexivity.
  - intros l _ k v r _ _ E. rewrite flat_MCons in E. destruct (flat_l l); discriminate.
  - reflexivity.
  - intros n IHn Hn E. rewrite ne_LNode in Hn. rewrite flat_LNode in E. rewrite (IHn (proj2 Hn) E) in Hn.
    destruct Hn as [He _]. discriminate He.
Qed.

Definition on (h : nat) (x : sval * V) : Prop := lay (fst x) = h.

(* keys of a child are below the level *)
Lemma child_not_level h (l : ml) : lv_l lay h l -> Forall (fun x => ~ on h x) (flat_l l).
Proof.
  intros H. pose proof (proj1 (proj2 (lv_bounds lay) l h H)) as Hb. unfold lay_lt in Hb.
  eapply Forall_impl; [|exact Hb]. unfold on. intros; lia.
Qed.

Definition first_link (n : mt) : ml := match n with MEnd l | MCons l _ _ _ => l end.

(* the flattening of a node of level h splits at the node's first key, the first entry of layer h, or
   not at all: in the same place for two nodes that flatten alike *)
Lemma same_first_key h (n1 n2 : mt) : lv lay h n1 -> lv lay h n2 -> flat n1 = flat n2 ->
  flat_l (first_link n1) = flat_l (first_link n2) /\ suffix_from n1 0 = suffix_from n2 0.
Proof.
  assert (Hs : forall n : mt, lv lay h n ->
            flat n = flat_l (first_link n) ++ suffix_from n 0 /\
            Forall (fun x => ~ on h x) (flat_l (first_link n)) /\ headed (on h) (suffix_from n 0)).
  { intros [l|l k v r]; [rewrite lv_MEnd, flat_MEnd|rewrite lv_MCons, flat_MCons]; cbn [first_link suffix_from headed fst].
    - intros Hl. rewrite app_nil_r. auto using child_not_level.
    - intros (Hk & Hl & _). auto using child_not_level. }
  intros H1 H2 E. destruct (Hs n1 H1) as (F1 & L1 & S1), (Hs n2 H2) as (F2 & L2 & S2).
  rewrite F1, F2 in E. exact (split_unique (on h) _ _ _ _ L1 L2 S1 S2 E).
Qed.

Lemma canon_inner :
  (forall (n1 : mt) h n2, lv lay h n1 -> lv lay h n2 -> ne n1 -> ne n2 -> flat n1 = flat n2 -> n1 = n2) /\
  (forall (l1 : ml) h l2, lv_l lay h l1 -> lv_l lay h l2 -> ne_l l1 -> ne_l l2 -> flat_l l1 = flat_l l2 -> l1 = l2).
Proof.
  apply (@mt_ml_ind V).
  - intros l1 IHl h n2 H1 H2 N1 N2 E. destruct (same_first_key h _ _ H1 H2 E) as [El Es].
    destruct n2 as [l2|l2 k2 v2 r2]; [|discriminate Es]. f_equal. exact (IHl h l2 H1 H2 N1 N2 El).
  - intros l1 IHl k1 v1 r1 IHr h n2 H1 H2 N1 N2 E. destruct (same_first_key h _ _ H1 H2 E) as [El Es].
    destruct n2 as [l2|l2 k2 v2 r2]; [discriminate Es|]. cbn [suffix_from] in Es. injection Es as -> -> Er.
    destruct H1 as (_ & Hl1 & Hr1), H2 as (_ & Hl2 & Hr2), N1 as [Nl1 Nr1], N2 as [Nl2 Nr2].
    f_equal; [exact (IHl h l2 Hl1 Hl2 Nl1 Nl2 El)|exact (IHr h r2 Hr1 Hr2 Nr1 Nr2 Er)].
  - intros h l2 _ _ _ N2 E. symmetry. exact (proj2 ne_nil l2 N2 (eq_sym E)).
  - intros c1 IHc h l2 H1 H2 N1 N2 E. destruct l2 as [|c2]; [exact (proj2 ne_nil _ N1 E)|].
    destruct h as [|h']; [contradiction H1|]. f_equal. exact (IHc h' c2 H1 H2 (proj2 N1) (proj2 N2) E).
Qed.

End Canon.

(* the root: an inner node for the capped layer function *)
Section CanonRoot.
Context {V : Type}.
Notation mt := (mt V).
Variable lay : sval -> nat.

Theorem canon_root (n1 : mt) : forall h n2, lvr lay h n1 -> lvr lay h n2 -> ne n1 -> ne n2 ->
  flat n1 = flat n2 -> n1 = n2.
Proof.
  intros h n2 H1 H2. apply lvr_cap in H1. apply lvr_cap in H2.
  exact (proj1 (canon_inner (cap lay h)) n1 h n2 H1 H2).
Qed.

End CanonRoot.
