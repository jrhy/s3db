(* SchedExamples.v — the schedule that lost a committed version before fix 139e009, run on
   the model: with the open of that time (versions searched under current/ only) a read-write
   opener whose LIST is followed by a writer's whole commit returns an EMPTY table although a
   committed version exists; with the open as it is now the same schedule returns the row. *)
From S3db Require Import Base KeyOrder RowMerge Tree Store KvProto Inst Sched Client.
Import ListNotations.
Open Scope Z_scope.

(* Open as it was: listed versions are searched under current/ only *)
Definition open_cur_only {V} (c : cfg (V := V)) (ro : bool) (when : time) (order corder : list name) : prog V (handle (V := V)) :=
  bind (Do (RList PCur) (fun r =>
          match r with
          | RNames l => Ret (apply_order order l, [PCur], true)
          | _ => Fail E_LIST
          end))
    (fun '(names, ps, skip) =>
      bind (merge_loop c ps skip names None []) (fun '(acc, merged) =>
        let h :=
          match acc with
          | None => {| h_ro := ro; h_tree := []; h_dirty := false; h_link := None;
                       h_created := Some when; h_source := None; h_msources := [];
                       h_mode := empty_mode c; h_bf := c_bf c; h_merged := merged;
                       h_tombstoned := false; h_conf := 0 |}
          | Some a => {| h_ro := ro; h_tree := a_tree a; h_dirty := a_dirty a; h_link := a_link a;
                         h_created := Some when;
                         h_source := match merged with [(k, _)] => Some k | _ => None end;
                         h_msources := a_msources a; h_mode := a_mode a; h_bf := a_bf a;
                         h_merged := merged; h_tombstoned := false; h_conf := a_conf a |}
          end in
        if ro then Ret h
        else bind (commit corder h) (fun '(h', r) => match r with COk _ => Ret h' | CFail e => Fail e end))).

Definition cfgp := cfg_plain 0 16.

(* a bucket with one committed version holding key 100 *)
Definition b1 : bucket Z :=
  match run_plain 200 [] None empty_bucket
          (bind (open cfgp false None 5 [] []) (fun h =>
             match kv_set cfgp h 10 (VInt 100) 0 with
             | Some h' => bind (commit [] h') (fun _ => Ret tt)
             | None => Fail 0
             end)) with
  | (b, _, _) => b
  end.

Definition writer := client_writer cfgp 1001 [2] [2] 101 (VInt 201) 51.
Definition old_opener : prog Z (tree (cval Z)) :=
  bind (open_cur_only cfgp false 1000 [2] []) (fun h => Ret (kv_dump h)).
Definition new_opener := client_merger cfgp 1000 [2] [].

(* opener: LIST; writer: LIST, GET, PUT node, PUT current/new, PUT merged/old, DELETE current/old; opener: the rest *)
Definition sched : list nat := [0; 1; 1; 1; 1; 1; 1; 0; 0; 0; 0; 0; 0; 0; 0]%nat.

Definition result_of (p : prog Z (tree (cval Z))) : option (list sval) :=
  match p with Ret t => Some (map fst t) | _ => None end.

Example old_open_loses_a_committed_version :
  (* the version is committed *)
  o_names (b_cur b1) = [2] /\
  (* and yet the opener ends with an empty table *)
  let '(_, cl, _) := sched_run obj_eqb_plain [old_opener; writer] sched b1 0 [] in
  map result_of cl = [Some []; Some [VInt 100; VInt 201]].
Proof. vm_compute. split; reflexivity. Qed.

Example new_open_sees_it :
  let '(_, cl, _) := sched_run obj_eqb_plain [new_opener; writer] sched b1 0 [] in
  map result_of cl = [Some [VInt 100]; Some [VInt 100; VInt 201]].
Proof. vm_compute. reflexivity. Qed.
